(* MarkerP.v — the version marker and the lock (C17): exactly the three magic bytes followed by the version byte are accepted; a refused open and an open
   of a locked directory modify nothing; the lock is held exactly while a handle exists; an absent marker is the one refusal
   that leaves effects (finding E18). *)
From FJ Require Import BytesP Marker.

Lemma check_version_ok_iff b :
  check_version b = OpenOk <-> exists r, b = 70 :: 74 :: 76 :: 3 :: r.
Proof.
  split; [|intros [r ->]; reflexivity].
  unfold check_version, parse_file_header.
  destruct b as [|m0 [|m1 [|m2 [|v r]]]]; try discriminate.
  destruct (list_eqb _ _) eqn:E; [|discriminate]. apply list_eqb_eq in E. injection E as -> -> ->.
  destruct (_ || _); [|discriminate]. destruct (N.eqb_spec v 3) as [->|]; [eauto|discriminate].
Qed.

Lemma open_refuses_unmodified d b :
  ds_marker d = Some b -> (forall r, b <> 70 :: 74 :: 76 :: 3 :: r) ->
  fst (open_db d) = [] /\ exists v, snd (open_db d) = InvalidVersion v.
Proof.
  intros Hm Hb. pose proof (check_version_ok_iff b) as [Ok _]. unfold open_db. rewrite Hm.
  unfold check_version in *. destruct (parse_file_header b) as [v|]; [destruct (v =? 3)|]; cbn; eauto.
  destruct (Ok eq_refl) as [r E]. destruct (Hb r E).
Qed.

Lemma open_locked_unmodified d b :
  ds_marker d = Some b -> ds_lock_held d = true ->
  fst (open_db d) = [] /\ snd (open_db d) <> OpenOk.
Proof.
  intros Hm Hl. unfold open_db. rewrite Hm, Hl. destruct (check_version b); cbn; split; auto; discriminate.
Qed.

Definition lock_inv (s : lockst) : Prop := l_locked s = true <-> (0 < l_refs s)%nat.

(* the two kinds of state a step can produce *)
Lemma lock_inv_free : lock_inv {| l_refs := 0; l_locked := false |}.
Proof. split; [discriminate|]. intros H. inversion H. Qed.

Lemma lock_inv_held n : lock_inv {| l_refs := S n; l_locked := true |}.
Proof. split; [intros _; apply le_n_S, le_0_n|reflexivity]. Qed.

Lemma lock_step_inv s o : lock_inv s -> lock_inv (lock_step s o).
Proof.
  intros I. destruct o; cbn [lock_step].
  - destruct (l_locked s); [exact I|apply lock_inv_held].
  - destruct (l_locked s); [apply lock_inv_held|exact I].
  - destruct (l_refs s) as [|[|n]]; [exact I|apply lock_inv_free|apply lock_inv_held].
Qed.

Lemma lock_run_inv ops : forall s, lock_inv s -> lock_inv (fold_left lock_step ops s).
Proof. induction ops as [|o ops IH]; intros s H; cbn; [exact H|]. apply IH, lock_step_inv, H. Qed.

(* "a directory whose version marker is absent ... is refused without being modified" does not hold of create_or_recover:
   an absent marker sends the open down the create_new path, which has file-system effects before it fails on the
   existing journal (known finding E18: the visible one is a fresh `lock` file when none existed) *)
Lemma absent_marker_refusal_has_effects :
  exists d, ds_marker d = None /\ snd (open_db d) = IoError /\ In FsCreateLockFile (fst (open_db d)).
Proof.
  exists {| ds_marker := None; ds_lock_held := false; ds_has_journal0 := true |}. cbn. auto.
Qed.
