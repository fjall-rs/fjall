(* DamageP.v — what an accepted batch guarantees, for ANY input bytes:
   its items and clears are those of a record list whose encoding hashes to a
   checksum that stands in the file as an End marker.  Hence altered data can
   only be accepted together with an xxh3 collision (or an altered checksum). *)
From FJ Require Import Reader CodecP ReaderP.
From Coq Require Import PeanoNat.

Set Default Proof Using "All".

Section DamageP.
  Variable hash : bytes -> N.
  Variable compress : bytes -> bytes.
  Variable decompress : bytes -> N -> option bytes.

  Notation dec_entry := (dec_entry decompress).
  Notation enc_records := (enc_records compress).
  Notation read_loop := (read_loop hash compress decompress).
  Notation read_journal := (read_journal hash compress decompress).

  Definition end_at (L : bytes) (p : nat) (x : N) : Prop :=
    exists r n, dec_entry (skipn p L) = Some (EEnd x, r, n).

  Definition checksummed (L : bytes) (b : rbatch) : Prop :=
    exists recs p x,
      rb_items b = ritems_of recs /\ rb_clears b = rclears_of recs /\
      end_at L p x /\ hash (enc_records recs) = x.

  Lemma read_loop_checksummed L f : forall b c s rs bl p l out pre bs o,
    L = pre ++ l -> Forall (checksummed L) out ->
    read_loop f (state compress b c s rs bl p) l out = (bs, o) -> Forall (checksummed L) bs.
  Proof.
    induction f as [|f IH]; intros b c s rs bl p l out pre bs o HL Hout.
    { intros [= <- _]. now apply Forall_rev. }
    apply (read_loop_cases hash compress decompress (fun K => K f = (bs, o) -> Forall (checksummed L) bs)).
    { intros o' [= <- _]. now apply Forall_rev. }
    intros e r n D st' out' X. destruct (local_dec_entry _ _ _ _ _ D) as (cc & Hl & _).
    assert (HL' : L = (pre ++ cc) ++ r) by (rewrite <- app_assoc, <- Hl; exact HL).
    destruct X as [| |? rs' ? ?]; apply (IH _ _ _ _ _ _ _ _ _ _ _ HL'); try exact Hout.
    constructor; [|exact Hout]. exists (rev rs'), (length pre), (hash (enc_records (rev rs'))). repeat split.
    exists r, n. now rewrite HL, skipn_app, Nat.sub_diag, skipn_all.
  Qed.

  (* C15: [L] is ANY byte string, however altered *)
  Theorem accepted_batches_checksummed L bs o :
    read_journal L = (bs, o) -> Forall (checksummed L) bs.
  Proof. apply (read_loop_checksummed L _ false 0 0 [] 0 0 L [] []); [reflexivity|constructor]. Qed.

  Lemma enc_records_inj a : forall b,
    Forall (wf_record compress decompress) a -> Forall (wf_record compress decompress) b ->
    enc_records a = enc_records b -> a = b.
  Proof.
    induction a as [|r a IH]; intros [|r' b] Wa Wb H; [reflexivity| | |].
    - now destruct (enc_entry_head compress (entry_of_record r')) as [tl E]; rewrite (enc_records_cons compress), E in H.
    - now destruct (enc_entry_head compress (entry_of_record r)) as [tl E]; rewrite (enc_records_cons compress), E in H.
    - inversion Wa as [|? ? Wr Wa']; inversion Wb as [|? ? Wr' Wb']; subst.
      rewrite !(enc_records_cons compress) in H. apply (enc_entry_inj _ _ _ _ _ _ Wr Wr') in H as [E H].
      f_equal; [destruct r, r'; cbn in E; congruence|now apply IH].
  Qed.

  (* C15: if a batch whose records differ from the written ones is accepted against the
     written checksum, two different byte strings have the same xxh3 value *)
  Theorem damage_needs_collision recs recs' :
    Forall (wf_record compress decompress) recs -> Forall (wf_record compress decompress) recs' ->
    recs <> recs' ->
    hash (enc_records recs') = hash (enc_records recs) ->
    exists a b, a <> b /\ hash a = hash b.
  Proof.
    intros W W' NE H. exists (enc_records recs'), (enc_records recs). split; [|exact H].
    intros E. apply NE. symmetry. apply enc_records_inj; assumption.
  Qed.
End DamageP.
