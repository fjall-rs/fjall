(* ReaderP.v — the reader on what the writer wrote: the cut-at-any-byte theorem, and the
   round trip as its case of a cut after the last byte.  The states the reader reaches are
   written over the records read so far ([state]), its steps are the relation [next]; the
   loop is walked once ([read_loop_cases]) and its fuel dealt with once ([run_step]). *)
From FJ Require Import Reader BytesP CodecP.
From Coq Require Import PeanoNat.

Lemma firstn_app_le {A} n (a b : list A) : (n <= length a)%nat -> firstn n (a ++ b) = firstn n a.
Proof. intros H. apply Nat.sub_0_le in H. rewrite firstn_app, H. apply app_nil_r. Qed.
Lemma firstn_app_ge {A} n (a b : list A) : (length a <= n)%nat ->
  firstn n (a ++ b) = a ++ firstn (n - length a) b.
Proof. intros H. now rewrite firstn_app, firstn_all2. Qed.

Lemma leb_add a b m : (a + b <=? m)%nat = ((a <=? m) && (b <=? m - a))%nat.
Proof. apply eq_true_iff_eq. rewrite andb_true_iff, !Nat.leb_le. lia. Qed.

Lemma flat_map_rev {A B} (f : A -> list B) l :
  (forall a, rev (f a) = f a) -> rev (flat_map f l) = flat_map f (rev l).
Proof.
  intros H. induction l as [|a l IH]; cbn [flat_map rev]; [reflexivity|].
  rewrite rev_app_distr, flat_map_app, IH, H. cbn [flat_map]. now rewrite app_nil_r.
Qed.

Set Default Proof Using "All".

Section ReaderP.
  Variable hash : bytes -> N.
  Variable compress : bytes -> bytes.
  Variable decompress : bytes -> N -> option bytes.
  Hypothesis hash_bound : forall b, hash b < 2 ^ 64.

  Notation enc_entry := (enc_entry compress).
  Notation dec_entry := (dec_entry decompress).
  Notation enc_records := (enc_records compress).
  Notation enc_batch := (enc_batch hash compress).
  Notation enc_journal := (enc_journal hash compress).
  Notation read_loop := (read_loop hash compress decompress).
  Notation read_journal := (read_journal hash compress decompress).
  Notation wf_entry := (wf_entry compress decompress).
  Notation dec_enc_entry := (dec_enc_entry compress decompress).
  Notation enc_records_cons := (enc_records_cons compress).

  Definition wf_record (r : record) : Prop := wf_entry (entry_of_record r).
  Definition wf_batch (b : wbatch) : Prop :=
    N.of_nat (length (wb_records b)) < 2 ^ 32 /\ wb_seqno b < 2 ^ 64 /\
    Forall wf_record (wb_records b).

  Lemma blen_length (l : bytes) : blen l = N.of_nat (length l). Proof. reflexivity. Qed.

  (* the loop spends one unit of fuel per entry and an entry has at least one byte, so
     [fuel l] is enough for [l]; more changes nothing *)
  Definition fuel (l : bytes) : nat := S (length l).
  Notation run st l out := (read_loop (fuel l) st l out).

  (* every state the reader reaches has this form: [rs] are the records of the open batch read
     so far, newest first, and the three accumulators are their images *)
  Definition state (b : bool) (c s : N) (rs : list record) (bl p : N) : rstate :=
    {| in_batch := b; counter := c; bseq := s; items := ritems_of rs; clears := rclears_of rs;
       acc := map (fun r => enc_entry (entry_of_record r)) rs; batch_last := bl; pos := p |}.
  Notation idle p s := (state false 0 s [] p p).

  (* the steps after which the loop goes on: in [st], with [out] emitted, the entry [e] of [n] bytes
     leads to [st'] and [out'] *)
  Inductive next (n : N) (out : list rbatch) : rstate -> entry -> rstate -> list rbatch -> Prop :=
  | next_start c0 s0 rs bl p c s :
      next n out (state false c0 s0 rs bl p) (EStart c s) (state true c s rs bl (p + n)) out
  | next_record c s rs bl p r : c <> 0 ->
      next n out (state true c s rs bl p) (entry_of_record r) (state true (c - 1) s (r :: rs) bl (p + n)) out
  | next_end s rs bl p :
      next n out (state true 0 s rs bl p) (EEnd (hash (enc_records (rev rs)))) (idle (p + n) s)
        (rbatch_of {| wb_seqno := s; wb_records := rev rs |} :: out).
  Arguments next_record {n out c s rs bl p} r.

  Lemma emitted s rs :
    {| rb_seqno := s; rb_items := rev (ritems_of rs); rb_clears := rev (rclears_of rs) |}
      = rbatch_of {| wb_seqno := s; wb_records := rev rs |}.
  Proof using Type.
    unfold rbatch_of, ritems_of, rclears_of. cbn [wb_seqno wb_records].
    now rewrite !flat_map_rev by (intros []; reflexivity).
  Qed.

  (* one turn of the loop as a function of the fuel left: it stops, or goes on by [next].
     [Proof using Type]: DamageP has no bound on the hash *)
  Lemma read_loop_cases (P : (nat -> list rbatch * routcome) -> Prop) b c s rs bl p l out :
    (forall o, P (fun _ => (rev out, o))) ->
    (forall e r n, dec_entry l = Some (e, r, n) -> forall st' out', next n out (state b c s rs bl p) e st' out' ->
       P (fun f => read_loop f st' r out')) ->
    P (fun f => read_loop (S f) (state b c s rs bl p) l out).
  Proof using Type.
    intros Stop Go. cbn [Reader.read_loop in_batch counter bseq items clears acc batch_last pos state].
    destruct (dec_entry l) as [[[e r] n]|]; [|apply Stop]. specialize (Go _ _ _ eq_refl).
    destruct e as [c' s'|ks k v vt cp|x|ks].
    - destruct b; [apply Stop|]. apply Go, next_start.
    - destruct b; [|apply Stop]. destruct (N.eqb_spec c 0); [apply Stop|].
      now apply Go, (next_record (RItem ks k v vt cp)).
    - rewrite <- map_rev, emitted. fold (enc_records (rev rs)).
      destruct (N.ltb_spec 0 c) as [ | ->%N.le_0_r ]; [apply Stop|]. destruct b; [|apply Stop].
      destruct (N.eqb_spec (hash (enc_records (rev rs))) x) as [<-|]; [apply Go, next_end|apply Stop].
    - destruct b; [|apply Stop]. destruct (N.eqb_spec c 0); [apply Stop|].
      now apply Go, (next_record (RClear ks)).
  Qed.

  Lemma read_loop_fuel f : forall f' b c s rs bl p l out, (length l < f)%nat -> (length l < f')%nat ->
    read_loop f (state b c s rs bl p) l out = read_loop f' (state b c s rs bl p) l out.
  Proof.
    induction f as [|f IH]; intros f' b c s rs bl p l out Hf Hf'; [destruct (Nat.nlt_0_r _ Hf)|].
    destruct f' as [|f']; [destruct (Nat.nlt_0_r _ Hf')|]. apply le_S_n in Hf. apply le_S_n in Hf'.
    apply (read_loop_cases (fun K => K f = K f')); [reflexivity|].
    intros e r n D%dec_entry_shorter st' out' X.
    destruct X; apply IH; eapply Nat.lt_le_trans; eassumption.
  Qed.

  Lemma run_step {n out st e st' out' l r} :
    next n out st e st' out' -> dec_entry l = Some (e, r, n) -> run st l out = run st' r out'.
  Proof.
    intros X D. transitivity (read_loop (length l) st' r out').
    - unfold fuel. cbn [Reader.read_loop]. rewrite D.
      destruct X as [c0 s0 rs bl p c s|c s rs bl p x C|s rs bl p];
        cbn [in_batch counter bseq items clears acc batch_last pos state].
      + reflexivity.
      + rewrite (proj2 (N.eqb_neq c 0) C). now destruct x.
      + rewrite <- map_rev, emitted. fold (enc_records (rev rs)). now rewrite N.eqb_refl.
    - apply dec_entry_shorter in D. destruct X; (apply read_loop_fuel; [exact D|apply Nat.lt_succ_diag_r]).
  Qed.

  Lemma read_journal_run l : read_journal l = run (idle 0 0) l [].
  Proof. reflexivity. Qed.

  Lemma run_none {st l out} : dec_entry l = None ->
    run st l out = (rev out, RStop (if in_batch st then batch_last st else pos st)).
  Proof. intros D. unfold fuel. cbn [Reader.read_loop]. now rewrite D. Qed.

  (* [X] takes the reader from [st] to [st'] wherever the file is cut behind it; a cut inside [X]
     ends the reading at the last complete batch *)
  Definition takes (X : bytes) (st st' : rstate) (out out' : list rbatch) : Prop :=
    forall m tl z, run st (firstn m (X ++ tl) ++ zeros z) out =
      if (length X <=? m)%nat then run st' (firstn (m - length X) tl ++ zeros z) out'
      else (rev out, RStop (batch_last st)).

  Lemma takes_nil st out : takes [] st st out out.
  Proof. intros m tl z. cbn [app length Nat.leb]. now rewrite Nat.sub_0_r. Qed.

  Lemma takes_app X Y st st1 st2 out out2 :
    takes X st st1 out out -> takes Y st1 st2 out out2 -> batch_last st1 = batch_last st ->
    takes (X ++ Y) st st2 out out2.
  Proof.
    intros RX RY BL m tl z.
    rewrite <- app_assoc, (RX m), (RY (m - length X)%nat), BL, app_length, Nat.sub_add_distr, leb_add.
    destruct (length X <=? m)%nat; reflexivity.
  Qed.

  (* a garbled entry of the kind of the one expected is taken all the same, unless that is the End marker *)
  Lemma next_same_kind {n out st e st' out' e'} n' :
    next n out st e st' out' -> kind_of e' = kind_of e -> (forall x, e' <> EEnd x) ->
    exists st'', next n' out st e' st'' out /\ in_batch st'' = true /\ batch_last st'' = batch_last st.
  Proof.
    intros X K NE. destruct X as [c0 s0 rs bl p c s|c s rs bl p x C|s rs bl p].
    - destruct e'; try discriminate K. eexists. split; [apply next_start|split; reflexivity].
    - destruct x, e' as [|ks' k v vt' cp| |ks']; try discriminate K; eexists.
      + split; [exact (next_record (RItem ks' k v vt' cp) C)|split; reflexivity].
      + split; [exact (next_record (RClear ks') C)|split; reflexivity].
    - destruct e' as [| |x|]; try discriminate K. now destruct (NE x).
  Qed.

  Lemma takes_entry e st st' out out' :
    wf_entry e -> next (blen (enc_entry e)) out st e st' out' ->
    (in_batch st = false -> pos st = batch_last st) ->
    takes (enc_entry e) st st' out out'.
  Proof.
    intros W X P m tl z. destruct (Nat.leb_spec (length (enc_entry e)) m) as [GE|LT].
    - rewrite firstn_app_ge, <- app_assoc by exact GE. exact (run_step X (dec_enc_entry _ _ W)).
    - rewrite firstn_app_le by apply Nat.lt_le_incl, LT.
      destruct (dec_entry (firstn m (enc_entry e) ++ zeros z)) as [[[e' r'] n']|] eqn:D.
      + destruct (cut_entry _ _ W LT D) as (K & NE & z' & ->).
        destruct (next_same_kind n' X K NE) as (st'' & X' & IB & BL).
        now rewrite (run_step X' D), (run_none (dec_zeros _ z')), IB, BL.
      + rewrite (run_none D). destruct (in_batch st); [reflexivity|now rewrite P].
  Qed.

  Lemma takes_records out s bl rs : forall rs0 p, Forall wf_record rs ->
    takes (enc_records rs) (state true (N.of_nat (length rs)) s rs0 bl p)
      (state true 0 s (rev rs ++ rs0) bl (p + blen (enc_records rs))) out out.
  Proof.
    induction rs as [|r rs IH]; intros rs0 p W.
    - cbn [rev app]. change (enc_records []) with (@nil N). rewrite blen_nil, N.add_0_r. apply takes_nil.
    - apply Forall_cons_iff in W as [Wr Wrs].
      rewrite enc_records_cons, blen_app, N.add_assoc. cbn [rev]. rewrite <- app_assoc.
      assert (C : N.of_nat (length (r :: rs)) <> 0 /\ N.of_nat (length (r :: rs)) - 1 = N.of_nat (length rs))
        by (cbn [length]; lia).
      eapply takes_app; [apply takes_entry; [exact Wr|apply next_record, C|discriminate]| |reflexivity].
      rewrite (proj2 C). exact (IH _ _ Wrs).
  Qed.

  Lemma takes_batch b p s out : wf_batch b ->
    takes (enc_batch b) (idle p s) (idle (p + blen (enc_batch b)) (wb_seqno b)) out (rbatch_of b :: out).
  Proof.
    destruct b as [sq rs]. intros (WC & WS & WR). unfold Codec.enc_batch. cbn [wb_records wb_seqno] in *.
    rewrite !blen_app, !N.add_assoc.
    assert (E := next_end (blen (enc_entry (EEnd (hash (enc_records rs))))) out sq (rev rs) p).
    rewrite rev_involutive in E.
    eapply takes_app; [apply takes_entry; [exact (conj WC WS)|apply next_start|reflexivity]| |reflexivity].
    eapply takes_app; [exact (takes_records _ _ _ _ _ _ WR)| |reflexivity].
    rewrite app_nil_r. apply takes_entry; [apply hash_bound|apply E|discriminate].
  Qed.

  Lemma enc_journal_cons b bs : enc_journal (b :: bs) = enc_batch b ++ enc_journal bs.
  Proof. reflexivity. Qed.

  Fixpoint complete_prefix (bs : list wbatch) (m : nat) : list wbatch :=
    match bs with
    | [] => []
    | b :: bs' =>
        if (length (enc_batch b) <=? m)%nat
        then b :: complete_prefix bs' (m - length (enc_batch b))
        else []
    end.

  Lemma read_cut_gen bs : forall p s m z out,
    Forall wf_batch bs ->
    run (idle p s) (firstn m (enc_journal bs) ++ zeros z) out
      = (rev out ++ map rbatch_of (complete_prefix bs m),
         RStop (p + blen (enc_journal (complete_prefix bs m)))).
  Proof.
    induction bs as [|b bs IH]; intros p s m z out W.
    - cbn [Codec.enc_journal map concat complete_prefix]. rewrite firstn_nil. cbn [app].
      now rewrite (run_none (dec_zeros _ z)), app_nil_r, blen_nil, N.add_0_r.
    - apply Forall_cons_iff in W as [Wb Wbs].
      rewrite enc_journal_cons, (takes_batch b p s out Wb m). cbn [complete_prefix].
      destruct (length (enc_batch b) <=? m)%nat.
      + rewrite IH by assumption.
        cbn [map rev]. rewrite <- app_assoc, enc_journal_cons, blen_app, N.add_assoc. reflexivity.
      + cbn [map Codec.enc_journal concat]. now rewrite app_nil_r, blen_nil, N.add_0_r.
  Qed.

  (* ===== C03: the journal may end at ANY byte (with any amount of zero padding) ===== *)
  Theorem read_journal_cut bs m z :
    Forall wf_batch bs ->
    read_journal (firstn m (enc_journal bs) ++ zeros z)
      = (map rbatch_of (complete_prefix bs m),
         RStop (blen (enc_journal (complete_prefix bs m)))).
  Proof. intros W. now rewrite read_journal_run, read_cut_gen. Qed.

  Lemma complete_prefix_app bs1 : forall bs2 m,
    (length (enc_journal bs1) <= m)%nat ->
    complete_prefix (bs1 ++ bs2) m = bs1 ++ complete_prefix bs2 (m - length (enc_journal bs1)).
  Proof.
    induction bs1 as [|b bs1 IH]; intros bs2 m H.
    - cbn. now rewrite Nat.sub_0_r.
    - rewrite enc_journal_cons, app_length in *. cbn [app complete_prefix].
      destruct (Nat.leb_spec (length (enc_batch b)) m); [|lia].
      now rewrite IH, Nat.sub_add_distr by lia.
  Qed.

  Lemma complete_prefix_all bs : complete_prefix bs (length (enc_journal bs)) = bs.
  Proof. generalize (complete_prefix_app bs [] _ (le_n _)). now rewrite !app_nil_r. Qed.

  (* ===== C15: journal round trip, for every per-item compression choice:
     the cut after the last byte ===== *)
  Theorem read_journal_roundtrip bs z :
    Forall wf_batch bs ->
    read_journal (enc_journal bs ++ zeros z)
      = (map rbatch_of bs, RStop (blen (enc_journal bs))).
  Proof.
    intros W. generalize (read_journal_cut bs (length (enc_journal bs)) z W).
    now rewrite firstn_all, complete_prefix_all.
  Qed.

  Lemma complete_prefix_firstn bs : forall m, exists k,
    complete_prefix bs m = firstn k bs /\ (length (enc_journal (firstn k bs)) <= m)%nat.
  Proof.
    induction bs as [|b bs IH]; intros m; cbn [complete_prefix].
    - exists 0%nat. split; [reflexivity|apply Nat.le_0_l].
    - destruct (Nat.leb_spec (length (enc_batch b)) m) as [GE|LT].
      + destruct (IH (m - length (enc_batch b))%nat) as (k & -> & Hk). exists (S k). split; [reflexivity|].
        cbn [firstn]. rewrite enc_journal_cons, app_length. lia.
      + exists 0%nat. split; [reflexivity|apply Nat.le_0_l].
  Qed.

  Lemma enc_journal_app a b : enc_journal (a ++ b) = enc_journal a ++ enc_journal b.
  Proof. unfold Codec.enc_journal. now rewrite map_app, concat_app. Qed.

  (* ===== C03: after the repair, later appends are recoverable again ===== *)
  Theorem read_journal_reappend bs m z bs' z' :
    Forall wf_batch bs -> Forall wf_batch bs' ->
    let cp := complete_prefix bs m in
    let repaired := firstn (length (enc_journal cp)) (firstn m (enc_journal bs) ++ zeros z) in
    repaired = enc_journal cp /\
    read_journal (repaired ++ enc_journal bs' ++ zeros z')
      = (map rbatch_of (cp ++ bs'), RStop (blen (enc_journal (cp ++ bs')))).
  Proof.
    intros W W' cp repaired. destruct (complete_prefix_firstn bs m) as (k & E & Hk). fold cp in E. rewrite <- E in Hk.
    rewrite <- (firstn_skipn k bs), <- E in W. apply Forall_app in W as [Wcp _].
    assert (R : repaired = enc_journal cp).
    { unfold repaired. rewrite <- (firstn_skipn k bs), <- E, enc_journal_app.
      rewrite (firstn_app_ge m), <- app_assoc, firstn_app_le by auto. apply firstn_all. }
    split; [exact R|]. rewrite R, app_assoc, <- enc_journal_app.
    apply read_journal_roundtrip, Forall_app. split; assumption.
  Qed.
End ReaderP.
