(* OrderP.v — the sources of a tree's latest version stay ordered by recency under every sequence of tree operations
   that respects the write discipline; hence point reads agree with scans (C01, C04).                              *)
From FJ Require Import Lsm LsmP MapP FilterP SortP.

Definition srcs (t : tree) : list (list ent) :=
  mem_of t (v_active (latest t)) :: map (mem_of t) (v_sealed (latest t)) ++ [v_tables (latest t)].

Fixpoint Ordered (s : list (list ent)) : Prop :=
  match s with
  | [] => True
  | a :: r => (forall x y, In x a -> In y (concat r) -> es y < es x) /\ Ordered r
  end.

Lemma ordered_recency k I s : Ordered s -> recency_ordered k I s.
Proof.
  induction s as [|a r IH]; cbn; [auto|]. intros [H1 H2]. split; [|apply IH, H2].
  intros x y Ix Iy _ _ _ _. exact (N.lt_le_incl _ _ (H1 x y Ix Iy)).
Qed.

Lemma ordered_tl a r : Ordered (a :: r) -> Ordered r.
Proof. intros [_ H]. exact H. Qed.

Lemma ordered_cross a b x y : Ordered (a ++ b) -> In x (concat a) -> In y (concat b) -> es y < es x.
Proof.
  induction a as [|c r IH]; cbn [app concat Ordered]; [intros _ []|]. intros [H1 H2] Ix Iy.
  apply in_app_or in Ix as [Ix|Ix]; [|exact (IH H2 Ix Iy)]. apply H1; [exact Ix|]. rewrite concat_app. apply in_or_app. now right.
Qed.

Lemma ordered_nils (s : list (list ent)) T : Forall (fun a => a = []) s -> Ordered (s ++ [T]).
Proof.
  induction 1 as [|a r -> _ IH]; cbn [app Ordered]; [split; [intros x y _ []|exact I]|split; [intros x y []|exact IH]].
Qed.

(* the sources from some point on merged into one by a stream that emits only slots it was given *)
Lemma ordered_merge (a b : list (list ent)) (m : list ent) :
  Ordered (a ++ b) -> (forall y, In y m -> slot_in y (concat b)) -> Ordered (a ++ [m]).
Proof.
  intros H SUB. induction a as [|c r IH]; cbn [app Ordered] in *; [split; [intros x y _ []|exact I]|].
  destruct H as [H1 H2]. split; [|exact (IH H2)].
  intros x y Ix Iy. rewrite concat_snoc in Iy. rewrite concat_app in *.
  destruct (slot_in_app (concat r) _ (concat b) _ y (slot_in_self _) SUB Iy) as [z [Iz [_ <-]]]. apply H1; assumption.
Qed.

Definition has_mem (t : tree) (id : N) : Prop := exists m, find (fun m => m_id m =? id) (mems t) = Some m.
Definition act_ok (t : tree) : Prop := has_mem t (v_active (latest t)).

Record TInv (t : tree) : Prop := {
  ti_ids : ids_ok t;
  ti_distinct : ~ In (v_active (latest t)) (v_sealed (latest t));
  ti_ord : Ordered (srcs t);
  ti_act : act_ok t             (* the active memtable of the latest version exists in the memtable heap *)
}.

(* the write discipline: what fjall guarantees about the parameters it passes *)
Definition disciplined (t : tree) (o : tree_op) : Prop :=
  match o with
  | TAppend e => forall y, In y (concat (tl (srcs t))) -> es y < es e     (* newer than everything sealed or in tables *)
  | TIngest g items => mem_of t (v_active (latest t)) = [] /\
                       Forall (fun id => mem_of t id = []) (v_sealed (latest t))       (* memtables flushed first *)
  | _ => True
  end.

Lemma has_mem_new id l ms vs nm : has_mem {| mems := {| m_id := id; m_ents := l |} :: ms; vers := vs; next_mid := nm |} id.
Proof. unfold has_mem. cbn [mems find m_id]. rewrite N.eqb_refl. eauto. Qed.

Lemma act_ok_append t e : act_ok t -> act_ok (t_append t e).
Proof.
  intros [m F]. unfold act_ok, has_mem. rewrite latest_append. unfold t_append. cbn [mems].
  rewrite find_set_mem, F. cbn [option_map]. eauto.
Qed.

Lemma mem_of_append_same t e : act_ok t ->
  mem_of (t_append t e) (v_active (latest t)) = mem_insert e (mem_of t (v_active (latest t))).
Proof. intros [m F]. rewrite mem_of_append_active, F. reflexivity. Qed.

Lemma srcs_append t e : TInv t -> srcs (t_append t e) = mem_insert e (mem_of t (v_active (latest t))) :: tl (srcs t).
Proof.
  intros T. unfold srcs. rewrite latest_append. cbn [tl].
  rewrite (mem_of_append_same t e (ti_act _ T)), (map_ext_in _ (mem_of t)); [reflexivity|].
  intros id Iid. apply mem_of_append_other. intros ->. exact (ti_distinct _ T Iid).
Qed.

Lemma srcs_renew t sealed : (forall id, In id sealed -> id < next_mid t) ->
  srcs (renew t sealed) = [] :: map (mem_of t) sealed ++ [v_tables (latest t)].
Proof.
  intros Ls. unfold srcs. rewrite latest_renew. cbn [v_active v_sealed v_tables]. unfold renew at 1.
  rewrite mem_of_new, (map_ext_in _ (mem_of t)); [reflexivity|]. intros id Iid. apply mem_of_fresh, Ls, Iid.
Qed.

Lemma srcs_rotate t : ids_ok t ->
  srcs (fst (t_rotate t)) = match mem_of t (v_active (latest t)) with [] => srcs t | _ => [] :: srcs t end.
Proof.
  intros OK. destruct (latest_ids t OK) as [La Ls]. rewrite t_rotate_renew.
  destruct (mem_of t (v_active (latest t))) eqn:ME; [reflexivity|]. rewrite srcs_renew by (intros id [<-|I]; auto).
  unfold srcs. cbn [map]. rewrite ME. reflexivity.
Qed.

Lemma srcs_maint W t : srcs (vh_maintenance W t) = srcs t.
Proof. unfold srcs. rewrite latest_maint. unfold mem_of. rewrite mems_maint. reflexivity. Qed.

Lemma srcs_flush W s t : srcs (fst (t_flush W s t)) = srcs t \/
  srcs (fst (t_flush W s t)) = [mem_of t (v_active (latest t));
                                gc_stream W false None (flat_map (mem_of t) (v_sealed (latest t))) ++ v_tables (latest t)].
Proof. destruct (t_flush_cases W s t) as [->| ->]; [now left|right; apply srcs_maint]. Qed.

(* also when there are no tables and compaction does nothing: the stream of nothing is empty *)
Lemma srcs_compact W s ev f t :
  srcs (t_compact W s ev f t)
  = mem_of t (v_active (latest t)) :: map (mem_of t) (v_sealed (latest t)) ++ [gc_stream W ev f (v_tables (latest t))].
Proof. unfold t_compact. destruct (v_tables (latest t)) eqn:TB; [unfold srcs; rewrite TB; reflexivity|apply srcs_maint]. Qed.

Lemma srcs_clear s t : srcs (t_clear s t) = [[]; []].
Proof. unfold srcs, t_clear, latest. cbn [vers hd v_active v_sealed v_tables map app]. rewrite mem_of_new. reflexivity. Qed.

Lemma srcs_register g items t :
  srcs (t_register_ingest g items t) = mem_of t (v_active (latest t)) :: map (mem_of t) (v_sealed (latest t)) ++ [items ++ v_tables (latest t)].
Proof. reflexivity. Qed.

Lemma tinv_maint W t : TInv t -> TInv (vh_maintenance W t).
Proof.
  intros [OK DI OR AC]. split; [apply ids_ok_maint, OK|rewrite latest_maint; exact DI|rewrite srcs_maint; exact OR|].
  unfold act_ok, has_mem. rewrite latest_maint, mems_maint. exact AC.
Qed.

(* a pushed version that keeps the active memtable and seals nothing new: only the order of its sources is to be shown *)
Lemma tinv_push t v : TInv t -> v_active v = v_active (latest t) -> incl (v_sealed v) (v_sealed (latest t)) ->
  Ordered (mem_of t (v_active (latest t)) :: map (mem_of t) (v_sealed v) ++ [v_tables v]) -> TInv (push t v).
Proof.
  intros [OK DI OR AC] EA IS O. destruct (latest_ids t OK) as [La Ls]. unfold act_ok in AC. rewrite <- EA in *. split; [| |exact O|exact AC].
  - apply ids_ok_push; [exact OK|exact La|intros id I; apply Ls, IS, I].
  - intros I. exact (DI (IS _ I)).
Qed.

Lemma tinv_renew t sealed : TInv t -> incl sealed (v_active (latest t) :: v_sealed (latest t)) ->
  Ordered (map (mem_of t) sealed ++ [v_tables (latest t)]) -> TInv (renew t sealed).
Proof.
  intros [OK DI OR AC] IS O. destruct (latest_ids t OK) as [La Ls].
  assert (B : forall id, In id sealed -> id < next_mid t) by (intros id I; destruct (IS id I) as [<-|]; auto).
  split.
  - apply ids_ok_renew; assumption.
  - rewrite latest_renew. cbn [v_active v_sealed]. intros I. exact (N.lt_irrefl _ (B _ I)).
  - rewrite srcs_renew by exact B. split; [intros x y []|exact O].
  - unfold act_ok. rewrite latest_renew. apply has_mem_new.
Qed.

Theorem tinv_step t o : TInv t -> disciplined t o -> TInv (apply_top t o).
Proof.
  intros T D. pose proof T as [OK DI OR AC].
  destruct o as [e| |W s|W s ev f|s|g items|W]; cbn [apply_top disciplined] in *.
  - (* append: the entry is newer than everything below the active memtable *)
    split; [exact OK|exact DI| |apply act_ok_append, AC].
    rewrite srcs_append by exact T. destruct OR as [O1 O2]. split; [|exact O2].
    intros x y [<-|Ix] Iy; [apply D, Iy|]. apply filter_In in Ix as [Ix _]. apply O1; assumption.
  - (* rotation: a fresh, empty active memtable in front *)
    rewrite t_rotate_renew. destruct (mem_of t (v_active (latest t))); [exact T|].
    apply tinv_renew; [exact T|apply incl_refl|exact OR].
  - (* flush: the sealed memtables merged into the tables *)
    destruct (t_flush_cases W s t) as [->| ->]; [exact T|].
    apply tinv_maint, tinv_push; [exact T|reflexivity|intros id []|]. cbn [v_sealed v_tables map app].
    apply (ordered_merge [_] _ _ OR). intros y. rewrite concat_snoc, <- flat_map_concat_map.
    apply slot_in_app; [apply gc_stream_slots|apply slot_in_self].
  - (* compaction: the tables rewritten *)
    destruct (t_compact_cases W s ev f t) as [->| ->]; [exact T|].
    apply tinv_maint, tinv_push; [exact T|reflexivity|apply incl_refl|]. cbn [v_sealed v_tables].
    unfold srcs in OR. rewrite app_comm_cons in *. apply (ordered_merge _ _ _ OR).
    intros y. cbn [concat]. rewrite app_nil_r. apply gc_stream_slots.
  - (* clear: a new, empty tree on top *)
    split; [apply (ids_ok_apply t (TClear s) OK)|intros []|rewrite srcs_clear; repeat split; intros x y []|apply has_mem_new].
  - (* ingestion: the memtables were flushed first *)
    destruct D as [D1 D2]. apply (tinv_push t); [exact T|reflexivity|apply incl_refl|]. cbn [v_sealed v_tables].
    rewrite D1, app_comm_cons. apply ordered_nils. constructor; [reflexivity|apply Forall_map, D2].
  - apply tinv_maint, T.
Qed.

Fixpoint run_disciplined (t : tree) (ops : list tree_op) : Prop :=
  match ops with
  | [] => True
  | o :: r => disciplined t o /\ run_disciplined (apply_top t o) r
  end.

Theorem tinv_run ops : forall t, TInv t -> run_disciplined t ops -> TInv (fold_left apply_top ops t).
Proof.
  induction ops as [|o r IH]; intros t I D; cbn [fold_left]; [exact I|]. destruct D as [D1 D2].
  apply IH; [apply tinv_step; assumption|exact D2].
Qed.

Lemma tinv_init : TInv tree_init.
Proof.
  split; [apply ids_ok_init|intros []|cbn; tauto|apply has_mem_new].
Qed.

Lemma tinv_reads_agree t k I : TInv t -> v_get_ent t (latest t) k I = newest k I (v_all t (latest t)).
Proof. intros T. apply point_read_agrees_with_scan, ordered_recency, (ti_ord _ T). Qed.

(* for every tree reached from the empty tree by disciplined operations, the point read of every key at every instant
   returns exactly the entry the scan would show for it *)
Theorem reads_agree ops k I :
  run_disciplined tree_init ops ->
  let t := fold_left apply_top ops tree_init in
  v_get_ent t (latest t) k I = newest k I (v_all t (latest t)).
Proof.
  intros D t. apply tinv_reads_agree, (tinv_run ops tree_init tinv_init D).
Qed.

(* non-vacuity: a run with appends, a rotation, a flush, an overwrite and a compaction respects the discipline *)
Definition order_example : list tree_op :=
  [TAppend (mkEnt [107] 1 VValue [1]); TAppend (mkEnt [106] 2 VValue [2]); TRotate; TAppend (mkEnt [107] 3 VValue [3]);
   TFlush 0 4; TAppend (mkEnt [107] 5 VTomb []); TRotate; TFlush 0 6; TCompact 0 7 true None].
Lemma order_example_ok : run_disciplined tree_init order_example.
Proof.
  unfold order_example. cbn [run_disciplined disciplined]. repeat split; intros y Hy; vm_compute in Hy; repeat (destruct Hy as [<-|Hy]); try contradiction; vm_compute; reflexivity.
Qed.
