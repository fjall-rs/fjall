(* PoisonP.v — fail-stop at the level of the database model (C13): no operation clears the poison flag, and while it is set no
   insert / remove / clear is accepted: the state, in particular the journal, is exactly as it was. *)
From FJ Require Import Db DbOrderP ReachP RecoverP.

Lemma prim_poisoned d m d' : prim d m d' -> d_poisoned d' = d_poisoned d.
Proof. intros P. destruct P; reflexivity. Qed.

Lemma reach_poisoned m d d' : reach m d d' -> d_poisoned d' = d_poisoned d.
Proof.
  intros R. apply (reach_inv m (fun x => d_poisoned x = d_poisoned d)) with (d := d); [|exact R|reflexivity].
  intros a b P E. rewrite (prim_poisoned a m b P). exact E.
Qed.

Lemma poisoned_do_rotate d id : d_poisoned (fst (do_rotate d id)) = d_poisoned d.
Proof. exact (reach_poisoned true _ _ (rotate_reach true d id)). Qed.
Lemma poisoned_do_step d : d_poisoned (fst (do_step d)) = d_poisoned d.
Proof. exact (reach_poisoned true _ _ (step_reach true d)). Qed.
Lemma poisoned_do_drain f : forall d n, d_poisoned (fst (do_drain f d n)) = d_poisoned d.
Proof. intros d n. exact (reach_poisoned true _ _ (drain_reach true f d n)). Qed.

(* [wstep] has no reopen: only a new process starts unpoisoned *)
Theorem poison_sticky d o : d_poisoned (wstep d o) = d_poisoned d.
Proof. exact (reach_poisoned false _ _ (wstep_reach d o)). Qed.

Lemma run_poison_sticky ops : forall d, d_poisoned (fold_left wstep ops d) = d_poisoned d.
Proof. intros d. exact (reach_poisoned false _ _ (wrun_reach ops d)). Qed.

Theorem poisoned_writes_refused d : d_poisoned d = true ->
  (forall id k v vt mvt, fst (write_one d id k v vt mvt) = d /\ snd (write_one d id k v vt mvt) <> ObOk) /\
  (forall id, fst (do_clear d id) = d /\ snd (do_clear d id) <> ObOk).
Proof. intros P. split; intros; [apply write_one_poisoned|apply do_clear_poisoned]; exact P. Qed.

(* hence: once poisoned, whatever operations follow, every later insert / remove / clear is refused; the journal gains no
   record from them, and what is read does not change through them *)
Theorem poisoned_forever d ops : d_poisoned d = true ->
  let d' := fold_left wstep ops d in
  forall id k v vt mvt, fst (write_one d' id k v vt mvt) = d' /\ snd (write_one d' id k v vt mvt) <> ObOk.
Proof. intros P d' id k v vt mvt. apply write_one_poisoned. unfold d'. rewrite run_poison_sticky. exact P. Qed.
