(* PlainP.v — the program interpreter (Prog.v db_step / run: the function whose observation lines are compared with the
   implementation on every check run) on a plain database: every write / maintenance / reopen operation is one step of the
   database model the refinement theorems are about, and every latest-state read observation is the value the point read /
   scan of the latest version returns — which those theorems tie to the reference map. *)
From FJ Require Import Prog DbOrderP ReachP RefineP RecoverP RecoverInvP.
From Coq Require Import ZArith Sorted.

Definition bitem_ritem (d : db) (it : bitem) : option ritem :=
  match it with
  | BPut h k v => omap (fun ks => {| ri_ks := k_id ks; ri_key := k; ri_value := v; ri_vt := VValue |}) (handle_ks d h)
  | BDel h k => omap (fun ks => {| ri_ks := k_id ks; ri_key := k; ri_value := []; ri_vt := VTomb |}) (handle_ks d h)
  | BDelW h k => omap (fun ks => {| ri_ks := k_id ks; ri_key := k; ri_value := []; ri_vt := VWeak |}) (handle_ks d h)
  end.

(* the database-model operation a program operation is, in the state it is issued in (None: it changes nothing) *)
Definition rop_of (d : db) (o : op) : option rop :=
  match o with
  | OReopen => Some RReopen
  | OKs h name => Some (RW (WKs h name))
  | ODelKs h => Some (RDelKs h)
  | OPut h k v => omap (fun ks => RW (WWrite (k_id ks) k v VValue VValue)) (handle_ks d h)
  | ODel h k => omap (fun ks => RW (WWrite (k_id ks) k [] VTomb VTomb)) (handle_ks d h)
  | ODelW h k => omap (fun ks => RW (WWrite (k_id ks) k [] VWeak VTomb)) (handle_ks d h)
  | OClear h => omap (fun ks => RW (WClear (k_id ks))) (handle_ks d h)
  | OIngest h items => omap (fun ks => RW (WIngest (k_id ks) items)) (handle_ks d h)
  | ORotate h => omap (fun ks => RW (WRotate' (k_id ks))) (handle_ks d h)
  | OStep => Some (RW WStep)
  | ODrain => Some (RW (WDrain 200))
  | OMajor h => omap (fun ks => RW (WMajor (k_id ks) true)) (handle_ks d h)
  | OBatch items =>
      let resolved := map (bitem_ritem d) items in
      if existsb (fun x => match x with None => true | Some _ => false end) resolved then None
      else match flat_map (fun x => match x with Some i => [i] | None => [] end) resolved with
           | [] => None
           | its => if d_poisoned d then None else Some (RW (WBatch its its))
           end
  | _ => None
  end.

Definition plain_op (o : op) : bool :=
  match o with
  | OReopen | OKs _ _ | ODelKs _ | OPut _ _ _ | ODel _ _ | ODelW _ _ | OClear _ | OBatch _ | OIngest _ _ | OPersist
  | ORotate _ | OStep | ODrain | OMajor _ | OExists _ | ONames
  | OGet VwNone _ _ | OHas VwNone _ _ | OSize VwNone _ _ | OFirst VwNone _ | OLast VwNone _ | OLen VwNone _ | OEmpty VwNone _
  | OScan VwNone _ _ _ | ODump => true
  | _ => false
  end.

Lemma read_op_plain d h track f : d_mode d = MPlain ->
  fst (read_op d VwNone h track f) = d.
Proof.
  intros M. unfold read_op. destruct (handle_ks d h) as [ks|]; [|reflexivity]. cbn [resolve_view].
  destruct (f RvLatest (k_id ks) (k_tree ks)); [|reflexivity]. cbn [fst]. unfold mark. rewrite M. reflexivity.
Qed.

Lemma read_op_latest d h ks track f x : d_mode d = MPlain -> handle_ks d h = Some ks ->
  f RvLatest (k_id ks) (k_tree ks) = Some x -> read_op d VwNone h track f = (d, x).
Proof. intros M HK F. unfold read_op. rewrite HK. cbn [resolve_view]. rewrite F. unfold mark. rewrite M. reflexivity. Qed.

Theorem plain_step_state d o : d_mode d = MPlain -> plain_op o = true ->
  fst (db_step as_is d o) = match rop_of d o with Some r => rstep d r | None => d end.
Proof.
  intros M P. destruct o; try discriminate P; try reflexivity;
    try (destruct v; try discriminate P; apply read_op_plain, M);
    unfold db_step; rewrite ?M; cbn [rop_of rstep wstep];
    try (destruct (handle_ks d h) as [ks|]; reflexivity).
  - (* batch *) change (map _ items) with (map (bitem_ritem d) items).
    destruct (existsb _ _); [reflexivity|]. destruct (flat_map _ _); [reflexivity|]. destruct (d_poisoned d); reflexivity.
  - (* rotate *) destruct (handle_ks d h) as [ks|]; [|reflexivity]. cbn [omap rstep wstep]. destruct (do_rotate d (k_id ks)); reflexivity.
  - (* step *) destruct (do_step d); reflexivity.
  - (* drain *) destruct (do_drain 200 d 0); reflexivity.
Qed.

Lemma prim_mode d m d' : prim d m d' -> d_mode d' = d_mode d.
Proof. intros P. destruct P; reflexivity. Qed.

Lemma recover_mode cfg mode filters active sealed meta dirs pn ms : d_mode (recover cfg mode filters active sealed meta dirs pn ms) = mode.
Proof. rewrite recover_eq. reflexivity. Qed.

Lemma rrun_mode rs d : d_mode (fold_left rstep rs d) = d_mode d.
Proof.
  apply (rrun_keeps (fun x => d_mode x = d_mode d)); [intros a b P <-; apply (prim_mode a false b P)|intros x <-; unfold do_reopen; apply recover_mode|reflexivity].
Qed.
Lemma rstep_mode d r : d_mode (rstep d r) = d_mode d.
Proof. exact (rrun_mode [r] d). Qed.

(* every state the interpreter reaches on a plain program is a state the database model reaches by its own operations *)
Theorem plain_run_reachable prog : forall d, d_mode d = MPlain -> forallb plain_op prog = true ->
  exists rs, fst (run as_is d prog) = fold_left rstep rs d.
Proof.
  induction prog as [|o r IH]; intros d M P; cbn [run]; [exists []; reflexivity|].
  cbn [forallb] in P. apply andb_true_iff in P as [P1 P2].
  pose proof (plain_step_state d o M P1) as E.
  destruct (db_step as_is d o) as [d1 x] eqn:S. cbn [fst] in E.
  assert (M1 : d_mode d1 = MPlain) by (rewrite E; destruct (rop_of d o); [rewrite rstep_mode|]; exact M).
  destruct (IH d1 M1 P2) as [rs R]. destruct (run as_is d1 r) as [d2 xs]. cbn [fst] in *.
  rewrite R, E. destruct (rop_of d o) as [ro|]; [exists (ro :: rs)|exists rs]; reflexivity.
Qed.

Section Reads.
  Variable filters : list (bytes * frule).
  Variable rs : list rop.
  Let d := fold_left rstep rs (db_init MPlain filters).
  Variable h : N.
  Variable ks : kspace.
  Hypothesis HK : handle_ks d h = Some ks.
  Hypothesis BOUND : d_seqno d < MAXSEQ.        (* the seqno counter has not reached SeqNo::MAX (the code asserts < 2^63) *)

  Lemma mode_d : d_mode d = MPlain.
  Proof using. apply rrun_mode. Qed.

  Lemma ks_in : In ks (d_kss d).
  Proof. unfold handle_ks in HK. destruct (alookup h (d_handles d)); [|discriminate]. exact (ks_of_in _ _ _ HK). Qed.

  Theorem plain_get_obs k :
    db_step as_is d (OGet VwNone h k) = (d, Ox (ObOpt (abs MAXSEQ (k_tree ks) k))).
  Proof using HK BOUND.
    destruct (reads_after_reopen MPlain filters rs ks k MAXSEQ ks_in BOUND) as [G _]. fold d in G.
    apply (read_op_latest d h ks); [exact mode_d|exact HK|]. cbn [view_get]. rewrite G. reflexivity.
  Qed.

  (* every scan observation is a function of one sorted list, which holds the reference map of the keyspace *)
  Lemma plain_scan_any :
    exists sc, (forall track g, read_op d VwNone h track (fun rv id t => omap g (view_scan rv id t)) = (d, g sc)) /\
               StronglySorted (fun a b => bytes_ltb (fst a) (fst b) = true) sc /\
               forall k v, In (k, v) sc <-> abs MAXSEQ (k_tree ks) k = Some v.
  Proof using HK BOUND.
    destruct (reads_after_reopen MPlain filters rs ks [] MAXSEQ ks_in BOUND) as [_ [sc [S [SO ME]]]]. fold d in S.
    exists sc. split; [|split; assumption]. intros track g.
    apply (read_op_latest d h ks); [exact mode_d|exact HK|]. cbn [view_scan]. rewrite S. reflexivity.
  Qed.

  Theorem plain_scan_obs dir r :
    exists sc, db_step as_is d (OScan VwNone h dir r) = (d, Ox (ObList (consume dir (restrict r sc)))) /\
               StronglySorted (fun a b => bytes_ltb (fst a) (fst b) = true) sc /\
               forall k v, In (k, v) sc <-> abs MAXSEQ (k_tree ks) k = Some v.
  Proof using HK BOUND. destruct plain_scan_any as [sc [R [SO ME]]]. exists sc. split; [apply R|split; assumption]. Qed.

  Theorem plain_len_obs :
    exists sc, db_step as_is d (OLen VwNone h) = (d, Ox (ObNum (N.of_nat (length sc)))) /\
               db_step as_is d (OFirst VwNone h) = (d, Ox (ObKv (kv_hd sc))) /\
               db_step as_is d (OLast VwNone h) = (d, Ox (ObKv (kv_last sc))) /\
               db_step as_is d (OEmpty VwNone h) = (d, Ox (ObBool (match sc with [] => true | _ => false end))) /\
               StronglySorted (fun a b => bytes_ltb (fst a) (fst b) = true) sc /\
               forall k v, In (k, v) sc <-> abs MAXSEQ (k_tree ks) k = Some v.
  Proof using HK BOUND.
    destruct plain_scan_any as [sc [R [SO ME]]]. exists sc. do 4 (split; [apply R|]). split; assumption.
  Qed.
End Reads.

Lemma run_app cfg p1 : forall d p2,
  run cfg d (p1 ++ p2) = (fst (run cfg (fst (run cfg d p1)) p2), snd (run cfg d p1) ++ snd (run cfg (fst (run cfg d p1)) p2)).
Proof.
  induction p1 as [|o r IH]; intros d p2; cbn [app run].
  - cbn [fst snd app]. destruct (run cfg d p2); reflexivity.
  - destruct (db_step cfg d o) as [d1 x]. rewrite IH. destruct (run cfg d1 r) as [d2 xs]. cbn [fst snd app]. reflexivity.
Qed.

Lemma run_length cfg p : forall d, length (snd (run cfg d p)) = length p.
Proof.
  induction p as [|o r IH]; intros d; cbn [run]; [reflexivity|]. destruct (db_step cfg d o) as [d1 x]. specialize (IH d1).
  destruct (run cfg d1 r) as [d2 xs]. cbn [snd length] in *. rewrite IH. reflexivity.
Qed.

(* the line the interpreter prints for a `get` anywhere in a plain program (any writes, maintenance, deletions and reopens before
   it) is the latest-version point read of the state the model reaches there *)
Theorem plain_program_get_line filters p1 p2 h k :
  forallb plain_op p1 = true ->
  let d0 := db_init MPlain filters in
  let d := fst (run as_is d0 p1) in
  forall ks, handle_ks d h = Some ks -> d_seqno d < MAXSEQ ->
  nth (length p1) (snd (run as_is d0 (p1 ++ OGet VwNone h k :: p2))) (Ox ObBadref) = Ox (ObOpt (abs MAXSEQ (k_tree ks) k)) /\
  exists rs, d = fold_left rstep rs d0.
Proof.
  intros P d0 d ks HK B.
  destruct (plain_run_reachable p1 d0 eq_refl P) as [rs R]. fold d in R.
  split; [|exists rs; exact R].
  rewrite run_app. cbn [snd]. rewrite app_nth2 by (rewrite run_length; apply le_n). rewrite run_length, Nat.sub_diag.
  fold d. cbn [run]. assert (E : db_step as_is d (OGet VwNone h k) = (d, Ox (ObOpt (abs MAXSEQ (k_tree ks) k)))).
  { revert HK B. rewrite R. intros HK B. unfold d0. exact (plain_get_obs filters rs h ks HK B k). }
  rewrite E. destruct (run as_is d p2). reflexivity.
Qed.
