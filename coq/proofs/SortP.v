(* SortP.v — the key order is a strict total order; sort_ents sorts (key ascending, seqno descending, stable); what the
   merged compaction / flush stream (gc_stream) does to the newest version of every key; scans are sorted and show exactly
   the newest non-tombstone version of every key. *)
From FJ Require Import Lsm BytesP LsmP TxP MapP FilterP.
From Coq Require Import Sorted.

Definition slot_in (e : ent) (l : list ent) : Prop := exists x, In x l /\ ek x = ek e /\ es x = es e.

Lemma slot_in_incl e l l' : (forall x, In x l -> In x l') -> slot_in e l -> slot_in e l'.
Proof. intros H [x [I E]]. exists x. split; [apply H, I|exact E]. Qed.
Lemma slot_in_self l e : In e l -> slot_in e l.
Proof. intros I. exists e. auto. Qed.
Lemma slot_in_app a a' b b' e : (forall x, In x a' -> slot_in x a) -> (forall x, In x b' -> slot_in x b) ->
  In e (a' ++ b') -> slot_in e (a ++ b).
Proof.
  intros HA HB I. apply in_app_or in I as [I|I]; [apply HA in I|apply HB in I]; revert I; apply slot_in_incl;
    intros x Ix; apply in_or_app; auto.
Qed.

Lemma gc_key_slots W ev f : forall l e, In e (gc_key W ev f l) -> slot_in e l.
Proof.
  induction l as [|h t IH]; intros e H; [destruct H|].
  destruct (gc_key_head W ev f h t) as [[G _]|(rest & G & R)]; rewrite G in H; [destruct H|]. destruct H as [<-|H].
  - exists h. split; [now left|]. split; symmetry; apply apply_filter_slot.
  - destruct R as [->| ->]; [destruct H|]. apply (slot_in_incl e t); [intros x; now right|apply IH, H].
Qed.

Lemma take_key_keys k : forall l g r, take_key k l = (g, r) ->
  l = g ++ r /\ (forall x, In x g -> ek x = k) /\ (match r with [] => True | y :: _ => ek y <> k end).
Proof.
  induction l as [|e t IH]; intros g r H; cbn [take_key] in H; [injection H as <- <-; repeat split; intros x []|].
  destruct (list_eqb_spec (ek e) k) as [K|K].
  - destruct (take_key k t) as [g' r'] eqn:T. injection H as <- <-. destruct (IH _ _ eq_refl) as (-> & A & B).
    repeat split; [|exact B]. intros x [<-|Ix]; [exact K|apply A, Ix].
  - injection H as <- <-. repeat split; [intros x []|exact K].
Qed.

Lemma gc_groups_cons n W ev f e t :
  gc_groups (S n) W ev f (e :: t) = let (g, r) := take_key (ek e) t in gc_key W ev f (e :: g) ++ gc_groups n W ev f r.
Proof. cbn [gc_groups take_key]. rewrite list_eqb_refl. destruct (take_key (ek e) t); reflexivity. Qed.

Lemma gc_groups_slots W ev f : forall n l e, In e (gc_groups n W ev f l) -> slot_in e l.
Proof.
  induction n as [|n IH]; intros l e; [exact (slot_in_self l e)|]. destruct l as [|e0 t]; [intros []|].
  rewrite gc_groups_cons. destruct (take_key (ek e0) t) as [g r] eqn:T. rewrite (proj1 (take_key_keys _ _ _ _ T)), app_comm_cons.
  apply slot_in_app; [apply gc_key_slots|apply IH].
Qed.

Lemma ins_ent_in e x : forall l, In x (ins_ent e l) <-> In x (e :: l).
Proof.
  induction l as [|y r IH]; cbn [ins_ent]; [reflexivity|].
  destruct (ent_before y e || same_slot y e); [|reflexivity]. cbn [In]. rewrite IH. cbn [In]. split; intros [H|[H|H]]; auto.
Qed.

Lemma sort_ents_in l x : In x (sort_ents l) <-> In x l.
Proof.
  unfold sort_ents. rewrite (in_rev l). induction (rev l) as [|e r IH]; cbn [fold_right]; [reflexivity|].
  rewrite ins_ent_in. cbn [In]. rewrite IH. reflexivity.
Qed.

Lemma sort_ents_in2 l x : In x l -> In x (sort_ents l).
Proof. apply sort_ents_in. Qed.

Lemma gc_stream_slots W ev f l e : In e (gc_stream W ev f l) -> slot_in e l.
Proof.
  unfold gc_stream. intros H. apply gc_groups_slots in H.
  eapply slot_in_incl; [|exact H]. intros x. apply sort_ents_in.
Qed.

Lemma ltb_irrefl a : bytes_ltb a a = false.
Proof. induction a as [|x a IH]; cbn; [reflexivity|]. rewrite N.ltb_irrefl, N.eqb_refl. exact IH. Qed.

Lemma ltb_cons x a y b : bytes_ltb (x :: a) (y :: b) = true <-> x < y \/ (x = y /\ bytes_ltb a b = true).
Proof.
  cbn. destruct (N.ltb_spec x y) as [L|G]; [split; auto|]. destruct (N.eqb_spec x y) as [E|NE].
  - split; [auto|]. intros [L|[_ H]]; [lia|exact H].
  - split; [discriminate|]. intros [L|[E _]]; [lia|contradiction].
Qed.

Lemma ltb_trans a : forall b c, bytes_ltb a b = true -> bytes_ltb b c = true -> bytes_ltb a c = true.
Proof.
  induction a as [|x a IH]; intros [|y b] [|z c]; try discriminate; try reflexivity.
  intros H1 H2. apply ltb_cons in H1. apply ltb_cons in H2. apply ltb_cons.
  destruct H1 as [L1|[-> H1]], H2 as [L2|[-> H2]]; [left; exact (N.lt_trans _ _ _ L1 L2)|left; exact L1|left; exact L2|right].
  split; [reflexivity|exact (IH _ _ H1 H2)].
Qed.

Lemma ltb_total a : forall b, bytes_ltb a b = false -> bytes_ltb b a = false -> a = b.
Proof.
  induction a as [|x a IH]; intros [|y b]; try discriminate; [reflexivity|]. cbn.
  destruct (N.ltb_spec x y) as [|G1]; [discriminate|]. destruct (N.ltb_spec y x) as [|G2]; [intros _; discriminate|].
  rewrite (N.le_antisymm x y G2 G1), N.eqb_refl. intros A B. rewrite (IH b A B). reflexivity.
Qed.

Lemma ltb_asym a b : bytes_ltb a b = true -> bytes_ltb b a = false.
Proof.
  intros H. destruct (bytes_ltb b a) eqn:E; [|reflexivity].
  pose proof (ltb_trans _ _ _ H E) as C. rewrite ltb_irrefl in C. discriminate.
Qed.

Lemma ent_before_spec a b :
  ent_before a b = true <-> (bytes_ltb (ek a) (ek b) = true \/ (ek a = ek b /\ es b < es a)).
Proof.
  unfold ent_before. destruct (bytes_ltb (ek a) (ek b)) eqn:L1; [split; auto|].
  destruct (bytes_ltb (ek b) (ek a)) eqn:L2.
  - split; [discriminate|]. intros [H|[E _]]; [discriminate|]. rewrite E, ltb_irrefl in L2. discriminate.
  - pose proof (ltb_total _ _ L1 L2) as E. rewrite N.ltb_lt. split; [auto|]. intros [H|[_ H]]; [discriminate|exact H].
Qed.

Definition notafter (x y : ent) : Prop := ent_before y x = false.
Definition ksorted (l : list ent) : Prop := StronglySorted notafter l.

Lemma notafter_spec x y : notafter x y <-> (bytes_ltb (ek x) (ek y) = true \/ (ek x = ek y /\ es y <= es x)).
Proof.
  unfold notafter, ent_before. destruct (bytes_ltb (ek y) (ek x)) eqn:L1.
  - split; [discriminate|]. intros [H|[E _]]; [rewrite (ltb_asym _ _ H) in L1|rewrite E, ltb_irrefl in L1]; discriminate.
  - destruct (bytes_ltb (ek x) (ek y)) eqn:L2; [split; auto|]. pose proof (ltb_total _ _ L2 L1) as E.
    rewrite N.ltb_ge. split; [auto|]. intros [H|[_ H]]; [discriminate|exact H].
Qed.

Lemma ent_before_asym a b : ent_before a b = true -> ent_before b a = false.
Proof.
  intros H. apply ent_before_spec in H. apply notafter_spec.
  destruct H as [H|[K H]]; [left; exact H|right; split; [exact K|apply N.lt_le_incl, H]].
Qed.

Lemma ent_before_negtrans a b c : ent_before a b = false -> ent_before b c = false -> ent_before a c = false.
Proof.
  intros A B. apply notafter_spec in A. apply notafter_spec in B. apply notafter_spec.
  destruct B as [B|[KB B]], A as [A|[KA A]].
  - left. exact (ltb_trans _ _ _ B A).
  - left. rewrite <- KA. exact B.
  - left. rewrite KB. exact A.
  - right. split; [congruence|exact (N.le_trans _ _ _ A B)].
Qed.

Lemma same_slot_spec x e : same_slot x e = true <-> (ek x = ek e /\ es x = es e).
Proof.
  unfold same_slot. rewrite andb_true_iff, list_eqb_true_iff, N.eqb_eq. reflexivity.
Qed.

(* what sortedness is used for: versions of one key descend in seqno, ... *)
Lemma notafter_key x y : notafter x y -> ek x = ek y -> es y <= es x.
Proof. intros H K. apply notafter_spec in H as [L|[_ H]]; [rewrite K, ltb_irrefl in L; discriminate|exact H]. Qed.

(* ... and they are contiguous: what lies between two versions of a key is a version of that key *)
Lemma notafter_between x y z : notafter x y -> notafter y z -> ek x = ek z -> ek y = ek x.
Proof.
  intros XY YZ K. apply notafter_spec in XY as [XY|[E _]]; [|symmetry; exact E].
  apply notafter_spec in YZ as [YZ|[E _]]; [|congruence]. rewrite <- K, (ltb_asym _ _ XY) in YZ. discriminate.
Qed.

Lemma notafter_squeeze x y z : notafter x y -> notafter y z -> ek x = ek z -> es x = es z -> same_slot y x = true.
Proof.
  intros XY YZ K Q. pose proof (notafter_between x y z XY YZ K) as KY. apply same_slot_spec. split; [exact KY|].
  apply notafter_key in XY, YZ; [lia|congruence|congruence].
Qed.

Lemma ins_ent_sorted e l : ksorted l -> ksorted (ins_ent e l).
Proof.
  induction 1 as [|x r S IH F]; cbn [ins_ent]; [repeat constructor|].
  destruct (ent_before x e || same_slot x e) eqn:C.
  - constructor; [exact IH|]. rewrite Forall_forall in F |- *. intros y Iy. apply ins_ent_in in Iy. destruct Iy as [<-|Iy]; [|apply F, Iy].
    apply orb_true_iff in C. destruct C as [C|C]; [apply ent_before_asym, C|].
    apply same_slot_spec in C. destruct C as [K Q]. apply notafter_spec. right. split; [exact K|rewrite Q; reflexivity].
  - apply orb_false_iff in C. destruct C as [C _].
    constructor; [constructor; assumption|]. constructor; [exact C|].
    rewrite Forall_forall in F |- *. intros y Iy. unfold notafter. eapply ent_before_negtrans; [apply F, Iy|exact C].
Qed.

Lemma sort_ents_sorted l : ksorted (sort_ents l).
Proof. unfold sort_ents. induction (rev l) as [|e r IH]; cbn [fold_right]; [constructor|apply ins_ent_sorted, IH]. Qed.

Lemma sort_ents_snoc l e : sort_ents (l ++ [e]) = ins_ent e (sort_ents l).
Proof. unfold sort_ents. rewrite rev_app_distr. reflexivity. Qed.

Lemma newest_ins_ent k I e l : ksorted l -> newest k I (ins_ent e l) = newest k I (l ++ [e]).
Proof.
  induction 1 as [|x r S IH F]; [reflexivity|]. cbn [ins_ent]. destruct (ent_before x e || same_slot x e) eqn:C.
  - rewrite newest_cons, IH. symmetry. apply (newest_cons k I x (r ++ [e])).
  - (* e jumps over x :: r; two candidates commute unless they share a seqno: then x, between them, would be in e's slot *)
    rewrite newest_cons, newest_app. apply comb_comm. intros a b A B Q.
    apply newest_in in A as ([<-|[]] & Ka & _). apply newest_in in B as (Ib & Kb & _).
    apply orb_false_iff in C as [EX SS]. rewrite (notafter_squeeze e x b) in SS; [discriminate|exact EX| |congruence|exact Q].
    destruct Ib as [<-|Ib]; [apply notafter_spec; right; split; [reflexivity|apply N.le_refl]|]. rewrite Forall_forall in F. apply F, Ib.
Qed.

Theorem newest_sort k I l : newest k I (sort_ents l) = newest k I l.
Proof.
  induction l as [|e r IH] using rev_ind; [reflexivity|].
  rewrite sort_ents_snoc, newest_ins_ent by apply sort_ents_sorted. rewrite !newest_app, IH. reflexivity.
Qed.

Lemma best_single_skip k I e acc : list_eqb (ek e) k && (es e <? I) = false -> best k I [e] acc = acc.
Proof. intros M. cbn [best]. rewrite M. reflexivity. Qed.

Lemma sorted_app_r a b : ksorted (a ++ b) -> ksorted b.
Proof. induction a as [|x a IH]; cbn; [auto|]. intros S. inversion S; subst. apply IH. assumption. Qed.

(* on a sorted list, take_key splits off the versions of the head's key, none newer than the head, and leaves none behind *)
Lemma take_key_sorted e t g r : ksorted (e :: t) -> take_key (ek e) t = (g, r) ->
  t = g ++ r /\ (forall x, In x (e :: g) -> ek x = ek e /\ es x <= es e) /\ (forall x, In x r -> ek x <> ek e).
Proof.
  intros S T. destruct (take_key_keys _ _ _ _ T) as (-> & GK & RK).
  apply StronglySorted_inv in S as [S' F]. rewrite Forall_forall in F. split; [reflexivity|]. split.
  - intros x [<-|Ix]; [split; [reflexivity|apply N.le_refl]|]. split; [apply GK, Ix|].
    apply notafter_key; [apply F, in_or_app; now left|symmetry; apply GK, Ix].
  - (* a later version of e's key would make the head of r one too *)
    destruct r as [|y r']; [intros x []|]. apply sorted_app_r, StronglySorted_inv in S' as [_ F']. rewrite Forall_forall in F'.
    intros x [<-|Ix] K; [contradiction|]. apply RK, (notafter_between e y x); [apply F, in_or_app; right; now left|apply F', Ix|symmetry; exact K].
Qed.

(* what the stream leaves of key k, for a reader above every seqno in the input: the newest version with the filter applied to
   it, or nothing at all when that is a tombstone evicted at the last level *)
Lemma gc_groups_newest W ev f k I : forall n s, ksorted s -> (length s < n)%nat -> all_below I s ->
  match newest k I s with
  | None => newest k I (gc_groups n W ev f s) = None
  | Some h => newest k I (gc_groups n W ev f s) = Some (apply_filter f h) \/
              (newest k I (gc_groups n W ev f s) = None /\ is_tomb (apply_filter f h) = true /\ ev = true)
  end.
Proof.
  induction n as [|n IH]; intros s S L AB; [inversion L|]. destruct s as [|e t]; [reflexivity|]. rewrite gc_groups_cons.
  destruct (take_key (ek e) t) as [g r] eqn:T. destruct (take_key_sorted e t g r S T) as (-> & GK & RK).
  assert (OK : forall x, In x (gc_key W ev f (e :: g)) -> ek x = ek e /\ es x <= es e).
  { intros x Ix. apply gc_key_slots in Ix as [z [Iz [<- <-]]]. apply GK, Iz. }
  assert (OR : forall x, In x (gc_groups n W ev f r) -> ek x <> ek e).
  { intros x Ix. apply gc_groups_slots in Ix as [z [Iz [<- _]]]. apply RK, Iz. }
  rewrite app_comm_cons, !newest_app.
  destruct (list_eqb_spec (ek e) k) as [<-|NK].
  - (* this is k's group: its head e is the newest version of k, and nothing of k comes after the group *)
    rewrite (newest_nokey _ _ r RK), (newest_nokey _ _ _ OR), !comb_none_r.
    assert (LT : es e < I) by (apply AB; now left).
    rewrite (newest_head (ek e) I e g) by (auto; intros x Ix _; apply GK; now right).
    destruct (gc_key_head W ev f e g) as [[G TE]|(rest & G & _)]; rewrite G in OK |- *; [right; auto|left].
    destruct (apply_filter_slot f e) as [FK FS]. apply newest_head; rewrite ?FS; [exact FK|exact LT|].
    intros x Ix _. apply OK. now right.
  - (* another key's group: it contributes nothing to k *)
    rewrite (newest_nokey k I (e :: g)), (newest_nokey k I (gc_key W ev f (e :: g))).
    + apply IH; [apply (sorted_app_r (e :: g)), S|cbn [length] in L; rewrite app_length in L; lia|].
      intros x Ix. apply AB. right. apply in_or_app. now right.
    + intros x Ix. rewrite (proj1 (OK x Ix)). exact NK.
    + intros x Ix. rewrite (proj1 (GK x Ix)). exact NK.
Qed.

Theorem gc_stream_newest W ev f k I l : all_below I l ->
  match newest k I l with
  | None => newest k I (gc_stream W ev f l) = None
  | Some h => newest k I (gc_stream W ev f l) = Some (apply_filter f h) \/
              (newest k I (gc_stream W ev f l) = None /\ is_tomb (apply_filter f h) = true /\ ev = true)
  end.
Proof.
  intros AB. unfold gc_stream. rewrite <- (newest_sort k I l).
  apply gc_groups_newest; [apply sort_ents_sorted|apply le_n|]. intros x Ix. apply AB, sort_ents_in, Ix.
Qed.

Corollary gc_stream_newest_flush W k I l : all_below I l -> newest k I (gc_stream W false None l) = newest k I l.
Proof.
  intros AB. pose proof (gc_stream_newest W false None k I l AB) as H.
  destruct (newest k I l) as [h|]; [|exact H]. rewrite apply_filter_none in H. destruct H as [H|[_ [_ H]]]; [exact H|discriminate].
Qed.

Corollary gc_stream_value W ev k I l : all_below I l ->
  value_of (newest k I (gc_stream W ev None l)) = value_of (newest k I l).
Proof.
  intros AB. pose proof (gc_stream_newest W ev None k I l AB) as H.
  destruct (newest k I l) as [h|]; [|rewrite H; reflexivity]. rewrite apply_filter_none in H.
  destruct H as [->|[-> [T _]]]; [reflexivity|]. cbn. rewrite T. reflexivity.
Qed.

(* the per-key rule alone, without a filter: the newest version survives unchanged, unless it is a tombstone at the last
   level whose older versions are all expired (or absent) — then the whole key disappears, which reads the same *)
Corollary gc_key_value W evict h t :
  value_of (hd_error (gc_key W evict None (h :: t))) = value_of (Some h).
Proof.
  destruct (gc_key_head W evict None h t) as [[-> [T _]]|(rest & -> & _)]; rewrite apply_filter_none in *; [|reflexivity].
  cbn. now rewrite T.
Qed.

Definition keys_sorted (l : list bytes) : Prop := StronglySorted (fun a b => bytes_ltb a b = true) l.

Lemma ins_key_sorted a l : keys_sorted l -> keys_sorted (ins_key a l).
Proof.
  induction 1 as [|z r S IH F]; cbn [ins_key]; [repeat constructor|].
  destruct (bytes_ltb a z) eqn:L.
  - constructor; [constructor; assumption|]. constructor; [exact L|].
    rewrite Forall_forall in F |- *. intros y Iy. eapply ltb_trans; [exact L|apply F, Iy].
  - destruct (list_eqb_spec a z) as [Q|Q]; [constructor; assumption|].
    constructor; [exact IH|]. rewrite Forall_forall in F |- *. intros y Iy. apply ins_key_in in Iy. destruct Iy as [<-|Iy]; [|apply F, Iy].
    destruct (bytes_ltb z a) eqn:L2; [reflexivity|]. destruct (Q (ltb_total _ _ L L2)).
Qed.

Lemma keys_of_sorted l : keys_sorted (keys_of l).
Proof. induction l as [|e r IH]; cbn [keys_of fold_right]; [constructor|apply ins_key_sorted, IH]. Qed.

Lemma keys_of_inv l k : In k (keys_of l) -> exists e, In e l /\ ek e = k.
Proof. apply keys_of_in. Qed.

Definition scan_cell (I : N) (vl : list ent) (k : bytes) : list (bytes * bytes) :=
  match newest k I vl with
  | Some e => if is_tomb e then [] else [(k, ev e)]
  | None => []
  end.

Lemma scan_cell_keys I vl k p : In p (scan_cell I vl k) -> fst p = k.
Proof. unfold scan_cell. destruct (newest k I vl) as [e|]; [destruct (is_tomb e)|]; intros []; subst; try reflexivity; contradiction. Qed.

Lemma flat_map_cells_sorted I vl : forall ks, keys_sorted ks ->
  StronglySorted (fun a b => bytes_ltb (fst a) (fst b) = true) (flat_map (scan_cell I vl) ks) /\
  forall p, In p (flat_map (scan_cell I vl) ks) -> In (fst p) ks.
Proof.
  induction 1 as [|k r S IH F]; cbn [flat_map]; [split; [constructor|intros p []]|].
  destruct IH as [IH1 IH2]. split.
  - unfold scan_cell at 1. destruct (newest k I vl) as [e|]; [destruct (is_tomb e)|]; cbn [app]; try exact IH1.
    constructor; [exact IH1|]. rewrite Forall_forall in F |- *. intros p Ip. cbn [fst]. apply F, IH2, Ip.
  - intros p Ip. apply in_app_or in Ip. destruct Ip as [Ip|Ip]; [left; symmetry; eapply scan_cell_keys, Ip|right; apply IH2, Ip].
Qed.

(* a scan is strictly ascending in the key order (in particular: no key twice) *)
Theorem scan_sorted l I : StronglySorted (fun a b => bytes_ltb (fst a) (fst b) = true) (scan_ents l I).
Proof. unfold scan_ents. apply (flat_map_cells_sorted I (vis I l)), keys_of_sorted. Qed.

Theorem scan_spec l I k v : In (k, v) (scan_ents l I) <-> value_of (newest k I l) = Some v.
Proof.
  unfold scan_ents. rewrite (newest_vis k I l), in_per_key. unfold value_of. split.
  - intros (k' & e & N & H). destruct (is_tomb e) eqn:T; [destruct H|]. destruct H as [[= <- <-]|[]]. rewrite N, T. reflexivity.
  - intros H. destruct (newest k I (vis I l)) as [e|] eqn:N; [|discriminate]. exists k, e. split; [exact N|].
    destruct (is_tomb e); [discriminate|]. injection H as <-. now left.
Qed.
