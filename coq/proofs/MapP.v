(* MapP.v — a list of entries read as a map (C01).  [newest k I] is a monoid homomorphism from lists under ++ to candidates
   under [comb] (newest_app, newest_one on singletons); with newest_in this is all that the later facts about it, here and
   in TxP.v and SortP.v, use.  Then: what a memtable insert does to it, the keys of a list, and why a point read agrees
   with a scan when the sources are ordered by recency. *)
From FJ Require Import Lsm BytesP.
From Coq Require Import ZifyBool.

Definition value_of (o : option ent) : option bytes :=
  match o with
  | Some e => if is_tomb e then None else Some (ev e)
  | None => None
  end.

Lemma list_eqb_spec a b : reflect (a = b) (list_eqb a b).
Proof. apply iff_reflect. symmetry. apply list_eqb_true_iff. Qed.

Definition comb (a b : option ent) : option ent :=
  match a, b with
  | Some x, Some y => if es x <? es y then Some y else Some x
  | Some x, None => Some x
  | None, y => y
  end.

Lemma comb_assoc a b c : comb (comb a b) c = comb a (comb b c).
Proof.
  destruct a as [x|], b as [y|], c as [z|]; cbn [comb]; try reflexivity; [|destruct (es x <? es y); reflexivity].
  destruct (es x <? es y) eqn:A, (es y <? es z) eqn:B; cbn [comb]; rewrite ?A, ?B; try reflexivity;
    destruct (es x <? es z) eqn:C; try reflexivity; lia.
Qed.

Lemma comb_pick a b : comb a b = a \/ comb a b = b.
Proof. destruct a as [x|], b as [y|]; cbn [comb]; auto. destruct (es x <? es y); auto. Qed.

Lemma comb_none_r a : comb a None = a.
Proof. destruct a; reflexivity. Qed.

Lemma comb_comm a b : (forall x y, a = Some x -> b = Some y -> es x <> es y) -> comb a b = comb b a.
Proof.
  destruct a as [x|], b as [y|]; try reflexivity. intros H. specialize (H x y eq_refl eq_refl). cbn [comb].
  destruct (N.ltb_spec (es x) (es y)), (N.ltb_spec (es y) (es x)); try reflexivity; lia.
Qed.

Lemma newest_one k I e : newest k I [e] = if list_eqb (ek e) k && (es e <? I) then Some e else None.
Proof. unfold newest. cbn [best]. destruct (_ && _); reflexivity. Qed.

Lemma best_cons k I e l acc : best k I (e :: l) acc = best k I l (comb acc (newest k I [e])).
Proof.
  rewrite newest_one. cbn [best]. destruct (_ && _); [|destruct acc; reflexivity].
  destruct acc as [a|]; cbn [comb]; [destruct (es a <? es e)|]; reflexivity.
Qed.

Lemma best_app k I a : forall b acc, best k I (a ++ b) acc = best k I b (best k I a acc).
Proof. induction a as [|e r IH]; intros b acc; [reflexivity|]. cbn [app]. rewrite !best_cons. apply IH. Qed.

Lemma best_comb k I l : forall acc, best k I l acc = comb acc (newest k I l).
Proof.
  induction l as [|e r IH]; intros acc; [destruct acc; reflexivity|].
  unfold newest. rewrite !best_cons, !IH. cbn [comb]. apply comb_assoc.
Qed.

Lemma newest_app k I a b : newest k I (a ++ b) = comb (newest k I a) (newest k I b).
Proof. unfold newest. rewrite best_app. apply best_comb. Qed.

Lemma newest_cons k I e l : newest k I (e :: l) = comb (newest k I [e]) (newest k I l).
Proof. apply (newest_app k I [e]). Qed.

Lemma newest_in k I l e : newest k I l = Some e -> In e l /\ ek e = k /\ es e < I.
Proof.
  induction l as [|x r IH]; [discriminate|]. rewrite newest_cons. intros H.
  destruct (comb_pick (newest k I [x]) (newest k I r)) as [E|E]; rewrite E in H.
  - rewrite newest_one in H. destruct (list_eqb (ek x) k) eqn:K, (N.ltb_spec (es x) I); try discriminate.
    injection H as <-. apply list_eqb_eq in K. split; [now left|]. split; assumption.
  - destruct (IH H) as [A B]. split; [now right|exact B].
Qed.

Lemma newest_le k I l a : (forall y, In y l -> ek y = k -> es y < I -> es y <= es a) -> comb (Some a) (newest k I l) = Some a.
Proof.
  intros H. destruct (newest k I l) as [y|] eqn:E; [|reflexivity]. apply newest_in in E as (Iy & Ky & Ly).
  specialize (H y Iy Ky Ly). cbn [comb]. now rewrite (proj2 (N.ltb_ge _ _) H).
Qed.

Lemma newest_head k I h t : ek h = k -> es h < I -> (forall x, In x t -> ek x = k -> es x <= es h) -> newest k I (h :: t) = Some h.
Proof.
  intros K L H. rewrite newest_cons, newest_one, K, list_eqb_refl, (proj2 (N.ltb_lt _ _) L).
  apply newest_le. intros y Iy Ky _. apply H; assumption.
Qed.

Lemma newest_nokey k I l : (forall x, In x l -> ek x <> k) -> newest k I l = None.
Proof. intros H. destruct (newest k I l) as [e|] eqn:E; [|reflexivity]. apply newest_in in E as (Ie & Ke & _). destruct (H e Ie Ke). Qed.

Lemma newest_filter k I p l : (forall x, In x l -> ek x = k -> es x < I -> p x = true) -> newest k I (filter p l) = newest k I l.
Proof.
  induction l as [|x r IH]; intros H; [reflexivity|]. cbn [filter].
  rewrite (newest_cons k I x r), <- IH by (intros y Iy; apply H; now right).
  destruct (p x) eqn:P; [apply newest_cons|]. destruct (newest k I [x]) as [y|] eqn:E; [|reflexivity].
  apply newest_in in E as ([<-|[]] & K & L). rewrite (H x) in P; [discriminate|now left|exact K|exact L].
Qed.

Lemma newest_skip_slot k I e l : ek e <> k -> newest k I (filter (fun x => negb (same_slot e x)) l) = newest k I l.
Proof.
  intros K. apply newest_filter. intros x _ Kx _. destruct (same_slot e x) eqn:S; [|reflexivity].
  apply andb_true_iff in S as [S _]. apply list_eqb_eq in S. congruence.
Qed.

(* [<=], not [<]: the items of one batch share a seqno *)
Lemma newest_insert_le e l k I : (forall y, In y l -> es y <= es e) -> es e < I ->
  newest k I (mem_insert e l) = if list_eqb (ek e) k then Some e else newest k I l.
Proof.
  intros LE LT. unfold mem_insert. destruct (list_eqb_spec (ek e) k) as [K|K].
  - apply newest_head; [exact K|exact LT|]. intros y Iy _. apply filter_In in Iy as [Iy _]. apply LE, Iy.
  - rewrite newest_cons, (newest_nokey k I [e]) by (intros x [<-|[]]; exact K). apply newest_skip_slot, K.
Qed.

Lemma ins_key_in a x : forall l, In x (ins_key a l) <-> In x (a :: l).
Proof.
  induction l as [|z l IH]; cbn [ins_key]; [reflexivity|].
  destruct (bytes_ltb a z); [reflexivity|]. destruct (list_eqb_spec a z) as [<-|NE].
  - split; [now right|intros [<-|H]; [now left|exact H]].
  - cbn [In]. rewrite IH. cbn [In]. split; intros [H|[H|H]]; auto.
Qed.

Lemma keys_of_in l k : In k (keys_of l) <-> exists e, In e l /\ ek e = k.
Proof.
  induction l as [|e r IH]; cbn [keys_of fold_right]; [split; [intros []|intros [e [[] _]]]|]. fold (keys_of r).
  rewrite ins_key_in. cbn [In]. rewrite IH. split.
  - intros [<-|[x [Ix Kx]]]; [exists e|exists x]; auto.
  - intros [x [[<-|Ix] Kx]]; [left; exact Kx|right; eauto].
Qed.

(* what scans and commit batches are made of: one cell per key, computed from the newest version of that key *)
Lemma in_per_key {A} (c : bytes -> ent -> list A) I l x :
  In x (flat_map (fun k => match newest k I l with Some e => c k e | None => [] end) (keys_of l)) <->
  exists k e, newest k I l = Some e /\ In x (c k e).
Proof.
  rewrite in_flat_map. split.
  - intros (k & _ & H). destruct (newest k I l) as [e|] eqn:N; [eauto|destruct H].
  - intros (k & e & N & H). exists k. rewrite N. split; [|exact H]. apply newest_in in N as (Ie & Ke & _). apply keys_of_in. eauto.
Qed.

(* ---- point reads agree with scans when the sources are ordered by recency ----
   A point read looks through the sources in order (active memtable, sealed memtables newest first, tables) and returns
   the first hit; a scan merges everything and lets the highest seqno win.  They agree on every key as long as, per key,
   an earlier source never holds an older version than a later one.  Replaying journal records that the tables already
   cover broke exactly this premise (defects repaired by 3ed2a5b and dc3abc4). *)
Fixpoint recency_ordered (k : bytes) (I : N) (srcs : list (list ent)) : Prop :=
  match srcs with
  | [] => True
  | a :: r => (forall x y, In x a -> In y (concat r) -> list_eqb (ek x) k = true -> list_eqb (ek y) k = true ->
                           es x < I -> es y < I -> es y <= es x) /\ recency_ordered k I r
  end.

Theorem first_hit_is_newest k I srcs :
  recency_ordered k I srcs -> first_some (map (newest k I) srcs) = newest k I (concat srcs).
Proof.
  induction srcs as [|a r IH]; intros H; cbn [map concat]; [reflexivity|]. destruct H as [H1 H2].
  rewrite newest_app. unfold first_some. cbn [fold_right]. fold (first_some (map (newest k I) r)).
  destruct (newest k I a) as [e|] eqn:N; [|apply IH, H2].
  symmetry. apply newest_le. intros y Iy Ky Ly. apply newest_in in N as (Ie & Ke & Le).
  apply (H1 e y); try assumption; apply list_eqb_true_iff; assumption.
Qed.

Lemma concat_snoc {A} (s : list (list A)) (l : list A) : concat (s ++ [l]) = concat s ++ l.
Proof. rewrite concat_app. cbn [concat]. rewrite app_nil_r. reflexivity. Qed.

(* a version's point read and scan in terms of its sources *)
Lemma v_get_ent_first t v k I :
  v_get_ent t v k I = first_some (map (newest k I) (mem_of t (v_active v) :: map (mem_of t) (v_sealed v) ++ [v_tables v])).
Proof. unfold v_get_ent. cbn [map]. rewrite map_app, map_map. reflexivity. Qed.

Lemma v_all_concat t v : v_all t v = concat (mem_of t (v_active v) :: map (mem_of t) (v_sealed v) ++ [v_tables v]).
Proof. unfold v_all. cbn [concat]. rewrite concat_snoc, <- flat_map_concat_map. reflexivity. Qed.

Theorem point_read_agrees_with_scan t v k I :
  recency_ordered k I (mem_of t (v_active v) :: map (mem_of t) (v_sealed v) ++ [v_tables v]) ->
  v_get_ent t v k I = newest k I (v_all t v).
Proof. intros H. rewrite v_get_ent_first, v_all_concat. apply first_hit_is_newest, H. Qed.

(* without the premise the two reads differ: an old version in the memtable in front of a newer one in the tables (what
   replaying covered journal records produced) *)
Definition shadow_tree : tree :=
  {| mems := [ {| m_id := 0; m_ents := [mkEnt [107] 1 VValue [1]] |} ];
     vers := [ {| v_seq := 3; v_active := 0; v_sealed := []; v_tables := [mkEnt [107] 2 VValue [2]] |} ];
     next_mid := 1 |}.
Lemma shadow_disagrees :
  value_of (v_get_ent shadow_tree (latest shadow_tree) [107] 10) = Some [1] /\
  value_of (newest [107] 10 (v_all shadow_tree (latest shadow_tree))) = Some [2].
Proof. vm_compute. split; reflexivity. Qed.
