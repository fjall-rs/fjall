(* BytesP.v — lemmas about little-endian coding, takeN and the parser monad *)
From FJ Require Import Bytes.
(* these settings reach every file that loads this one, directly or not: [simpl] and [cbn] leave arithmetic on N folded *)
Arguments N.add : simpl never.
Arguments N.mul : simpl never.
Arguments N.sub : simpl never.
Arguments N.div : simpl never.
Arguments N.modulo : simpl never.
Arguments N.pow : simpl never.
Arguments N.eqb : simpl never.
Arguments N.ltb : simpl never.
Arguments N.leb : simpl never.
Arguments N.pred : simpl never.
Arguments N.of_nat : simpl never.

Lemma le_enc_length w x : length (le_enc w x) = w.
Proof. revert x; induction w as [|w IH]; intros x; simpl; [reflexivity|now rewrite IH]. Qed.

Lemma le_val_enc_mod w x : le_val (le_enc w x) = x mod 256 ^ N.of_nat w.
Proof.
  revert x; induction w as [|w IH]; intros x.
  - cbn. change (256 ^ N.of_nat 0) with 1. now rewrite N.mod_1_r.
  - cbn [le_enc le_val]. rewrite IH, Nat2N.inj_succ, N.pow_succ_r', N.mod_mul_r by lia. reflexivity.
Qed.

Lemma le_val_enc w x : x < 256 ^ N.of_nat w -> le_val (le_enc w x) = x.
Proof. intros Hx. rewrite le_val_enc_mod. now apply N.mod_small. Qed.

Lemma blen_nil : blen [] = 0.
Proof. reflexivity. Qed.
Lemma blen_app a b : blen (a ++ b) = blen a + blen b.
Proof. unfold blen. rewrite app_length. apply Nat2N.inj_add. Qed.
Lemma blen_cons x a : blen (x :: a) = 1 + blen a.
Proof. unfold blen. cbn [length]. lia. Qed.
Lemma blen_le_enc w x : blen (le_enc w x) = N.of_nat w.
Proof. unfold blen. now rewrite le_enc_length. Qed.

Lemma takeN_app c r : takeN (c ++ r) (blen c) = Some (c, r).
Proof.
  induction c as [|x c IH].
  - cbn. destruct r; reflexivity.
  - rewrite blen_cons, N.add_1_l. cbn [app takeN].
    destruct (N.eqb_spec (N.succ (blen c)) 0) as [E|_]; [destruct (N.neq_succ_0 _ E)|].
    now rewrite N.pred_succ, IH.
Qed.

Lemma takeN_inv l k c r : takeN l k = Some (c, r) -> l = c ++ r /\ blen c = k.
Proof.
  revert k c r; induction l as [|x l IH]; intros k c r H; cbn [takeN] in H;
    destruct (N.eqb_spec k 0) as [->|E]; try (injection H as <- <-; now split).
  - discriminate.
  - destruct (takeN l (N.pred k)) as [[c' r']|] eqn:T; [|discriminate].
    injection H as <- <-. apply IH in T as [-> Hl]. split; [reflexivity|].
    rewrite blen_cons, Hl, N.add_1_l. apply N.succ_pred, E.
Qed.

Definition accepts {A} (p : parser A) (c : bytes) (a : A) : Prop :=
  forall r, p (c ++ r) = Some (a, r, blen c).

Lemma accepts_ret {A} (a : A) : accepts (pret a) [] a.
Proof. intros r. reflexivity. Qed.

Lemma accepts_bind {A B} (p : parser A) (f : A -> parser B) c d a b :
  accepts p c a -> accepts (f a) d b -> accepts (pbind p f) (c ++ d) b.
Proof. intros Hp Hf r. unfold pbind. now rewrite <- app_assoc, (Hp (d ++ r)), (Hf r), blen_app. Qed.

Lemma accepts_ret_bind {A B} (a : A) (f : A -> parser B) d b : accepts (f a) d b -> accepts (pbind (pret a) f) d b.
Proof. exact (accepts_bind _ f [] d a b (accepts_ret a)). Qed.

Lemma accepts_bind_ret {A B} (p : parser A) (g : A -> B) c a :
  accepts p c a -> accepts (x <- p ;; pret (g x)) c (g a).
Proof. intros H. rewrite <- (app_nil_r c). exact (accepts_bind p (fun x => pret (g x)) c [] a _ H (accepts_ret _)). Qed.

Lemma accepts_take c : accepts (ptake (blen c)) c c.
Proof. intros r. unfold ptake. now rewrite takeN_app. Qed.

Lemma accepts_pnum c : accepts (pnum (blen c)) c (le_val c).
Proof. exact (accepts_bind_ret _ le_val c c (accepts_take c)). Qed.

(* the width is in [N], as in the parsers, so that [pnum 8] matches as it stands *)
Lemma accepts_num w x : x < 256 ^ w -> accepts (pnum w) (le_enc (N.to_nat w) x) x.
Proof.
  intros Hx. pose proof (accepts_pnum (le_enc (N.to_nat w) x)) as H.
  rewrite blen_le_enc, le_val_enc, N2Nat.id in H by now rewrite N2Nat.id. exact H.
Qed.

Lemma accepts_byte x : accepts (pnum 1) [x] x.
Proof. generalize (accepts_pnum [x]). cbn [le_val]. now rewrite N.add_0_r. Qed.

Lemma accepts_bind_byte {B} (f : N -> parser B) x d b :
  accepts (f x) d b -> accepts (pbind (pnum 1) f) (x :: d) b.
Proof. exact (accepts_bind _ f [x] d x b (accepts_byte x)). Qed.

Definition local {A} (p : parser A) : Prop :=
  forall l a r n, p l = Some (a, r, n) -> exists c, l = c ++ r /\ n = blen c /\ accepts p c a.

Lemma pbind_inv {A B} (p : parser A) (f : A -> parser B) l b r n :
  pbind p f l = Some (b, r, n) ->
  exists a r1 n1 n2, p l = Some (a, r1, n1) /\ f a r1 = Some (b, r, n2) /\ n = n1 + n2.
Proof.
  unfold pbind. destruct (p l) as [[[a r1] n1]|]; [|discriminate].
  destruct (f a r1) as [[[b' r'] n2]|] eqn:F; [|discriminate].
  intros [= -> -> <-]. eauto 10.
Qed.

Lemma local_pret {A} (a : A) : local (pret a).
Proof. intros l a' r n [= <- <- <-]. exists []. repeat split. Qed.

Lemma local_pfail {A} : local (@pfail A).
Proof. intros l a r n H. discriminate. Qed.

Lemma ptake_inv k l c r n : ptake k l = Some (c, r, n) -> l = c ++ r /\ blen c = k /\ n = k.
Proof.
  unfold ptake. destruct (takeN l k) as [[c' r']|] eqn:T; [|discriminate].
  intros [= <- <- <-]. apply takeN_inv in T as [-> <-]. repeat split.
Qed.

Lemma local_ptake k : local (ptake k).
Proof.
  intros l c r n H. apply ptake_inv in H as (-> & <- & ->).
  exists c. repeat split. apply accepts_take.
Qed.

Lemma local_pbind {A B} (p : parser A) (f : A -> parser B) :
  local p -> (forall a, local (f a)) -> local (pbind p f).
Proof.
  intros Hp Hf l b r n H.
  apply pbind_inv in H as (a & r1 & n1 & n2 & P & F & ->).
  destruct (Hp _ _ _ _ P) as (c1 & -> & -> & L1).
  destruct (Hf a _ _ _ _ F) as (c2 & -> & -> & L2).
  exists (c1 ++ c2). rewrite app_assoc, blen_app. repeat split. now apply accepts_bind with a.
Qed.

Lemma local_pnum w : local (pnum w).
Proof. unfold pnum. apply local_pbind; [apply local_ptake|intros; apply local_pret]. Qed.
Lemma local_pguard b : local (pguard b).
Proof. destruct b; [apply local_pret|apply local_pfail]. Qed.
Lemma local_popt {A} (o : option A) : local (popt o).
Proof. destruct o; [apply local_pret|apply local_pfail]. Qed.

Create HintDb local.
#[export] Hint Resolve local_pret local_pfail local_ptake local_pbind local_pnum local_pguard local_popt : local.

Definition yields {A} (p : parser A) (Q : A -> Prop) : Prop :=
  forall l a r n, p l = Some (a, r, n) -> Q a.

Lemma yields_pret {A} (a : A) (Q : A -> Prop) : Q a -> yields (pret a) Q.
Proof. intros H l a' r n [= <- _ _]. exact H. Qed.
Lemma yields_pfail {A} (Q : A -> Prop) : yields pfail Q.
Proof. intros l a r n H. discriminate. Qed.
Lemma yields_pbind {A B} (p : parser A) (f : A -> parser B) Q :
  (forall a, yields (f a) Q) -> yields (pbind p f) Q.
Proof. intros Hf l b r n H. apply pbind_inv in H as (a & r1 & _ & n2 & _ & F & _). exact (Hf _ _ _ _ _ F). Qed.

Lemma list_eqb_refl a : list_eqb a a = true.
Proof. induction a as [|x a IH]; cbn; [reflexivity|]. now rewrite N.eqb_refl, IH. Qed.
Lemma list_eqb_eq a b : list_eqb a b = true -> a = b.
Proof.
  revert b; induction a as [|x a IH]; intros [|y b] H; cbn in H; try discriminate; [reflexivity|].
  apply andb_true_iff in H as [H1 H2]. apply N.eqb_eq in H1. f_equal; auto.
Qed.
Lemma list_eqb_true_iff a b : list_eqb a b = true <-> a = b.
Proof. split; [apply list_eqb_eq|intros ->; apply list_eqb_refl]. Qed.

Lemma zeros_all z x : In x (zeros z) -> x = 0.
Proof. unfold zeros. apply repeat_spec. Qed.

Lemma zeros_suffix z l r : zeros z = l ++ r -> exists z', r = zeros z'.
Proof.
  intros H. exists (length r). apply Forall_eq_repeat.
  assert (F : Forall (eq 0) (l ++ r)).
  { rewrite <- H. apply Forall_forall. intros x Hx. symmetry. exact (zeros_all z x Hx). }
  apply Forall_app in F. tauto.
Qed.
