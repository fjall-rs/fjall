(* ConcP.v — every snapshot sees each batch entirely or not at all, for every interleaving of the commit
   protocol's micro-steps with snapshot-taking readers — provided nothing advances the visible seqno
   outside the journal mutex.  With lsm-tree's version-upgrade bump the statement is refuted. *)
From FJ Require Import Conc.
From Coq Require Import Sorted.

Section Steps.
  Variable n : N.

  Inductive step (s : cst) : event -> cst -> Prop :=
  | SAcq : c_inflight s = None ->
      step s EAcq {| c_seq := c_seq s; c_vis := c_vis s; c_inflight := Some PLocked; c_mem := c_mem s |}
  | SDraw : c_inflight s = Some PLocked ->
      step s EDraw {| c_seq := c_seq s + 1; c_vis := c_vis s; c_inflight := Some (PDrawn (c_seq s) 0); c_mem := c_mem s |}
  | SApply q k : c_inflight s = Some (PDrawn q k) -> k < n ->
      step s EApply {| c_seq := c_seq s; c_vis := c_vis s; c_inflight := Some (PDrawn q (k + 1)); c_mem := (q, k) :: c_mem s |}
  | SPub q : c_inflight s = Some (PDrawn q n) ->
      step s EPub {| c_seq := c_seq s; c_vis := N.max (c_vis s) (q + 1); c_inflight := Some (PPublished q); c_mem := c_mem s |}
  | SRel q : c_inflight s = Some (PPublished q) ->
      step s ERel {| c_seq := c_seq s; c_vis := c_vis s; c_inflight := None; c_mem := c_mem s |}
  | SSnap : step s ESnap s
  | SBump :
      step s EBump {| c_seq := c_seq s + 1; c_vis := N.max (c_vis s) (c_seq s + 1); c_inflight := c_inflight s; c_mem := c_mem s |}.

  Lemma cstep_step s e s' : cstep n s e = Some s' -> step s e s'.
  Proof.
    unfold cstep. intros H. destruct e; [..|injection H as <-; constructor|injection H as <-; constructor];
      destruct (c_inflight s) as [[|q k|q]|] eqn:E; try discriminate H.
    - injection H as <-. now constructor.
    - injection H as <-. now constructor.
    - destruct (N.ltb_spec k n); [|discriminate H]. injection H as <-. now constructor.
    - destruct (N.eqb_spec k n) as [->|]; [|discriminate H]. injection H as <-. now constructor.
    - injection H as <-. now apply (SRel s q).
  Qed.

  Lemma crun_inv (P : cst -> Prop) es : (forall s e s', In e es -> P s -> step s e s' -> P s') ->
    forall s s', P s -> crun n s es = Some s' -> P s'.
  Proof.
    induction es as [|e r IH]; intros HS s s' I H; cbn in H; [now injection H as <-|].
    destruct (cstep n s e) as [s1|] eqn:S; [|discriminate].
    apply (IH (fun s e' s' I' => HS s e' s' (or_intror I')) s1); [|exact H].
    exact (HS s e s1 (or_introl eq_refl) I (cstep_step _ _ _ S)).
  Qed.

  (* ---- C06: without the bump, the memtable holds every item of every batch drawn so far, except that of the batch
     in flight only the items applied so far; and that batch is not yet visible ---- *)
  Definition applied (s : cst) (q : N) : N :=
    match c_inflight s with Some (PDrawn q' k) => if q =? q' then k else n | _ => n end.

  Record CInv (s : cst) : Prop := {
    ci_vis : c_vis s <= c_seq s;
    ci_drawn : forall q k, c_inflight s = Some (PDrawn q k) -> c_vis s <= q /\ c_seq s = q + 1;
    ci_mem : forall q i, In (q, i) (c_mem s) <-> q < c_seq s /\ i < applied s q
  }.

  Lemma cinv_init : CInv cinit.
  Proof. constructor; cbn; [reflexivity|discriminate|]. intros q i. split; [intros []|lia]. Qed.

  Lemma cinv_step s e s' : is_bump e = false -> CInv s -> step s e s' -> CInv s'.
  Proof.
    intros NB [V D M] H. unfold applied in M.
    destruct H as [E|E|q' k E L|q' E|q' E| |]; try rewrite E in M; try destruct (D _ _ E) as [D1 D2].
    - constructor; [exact V|discriminate|exact M].
    - constructor; unfold applied; cbn.
      + lia.
      + intros q k H. injection H as <- <-. exact (conj V eq_refl).
      + intros q i. rewrite M. destruct (N.eqb_spec q (c_seq s)); lia.
    - constructor; unfold applied; cbn.
      + exact V.
      + intros q k0 H. injection H as <- <-. exact (conj D1 D2).
      + intros q i. rewrite pair_equal_spec, M. destruct (N.eqb_spec q q'); lia.
    - constructor; unfold applied; cbn.
      + lia.
      + discriminate.
      + intros q i. rewrite M. now destruct (q =? q').
    - constructor; [exact V|discriminate|exact M].
    - constructor; assumption.
    - discriminate NB.
  Qed.

  (* Atomic visibility and commit order, for EVERY interleaving without the bump: a snapshot taken in a reachable
     state sees exactly the batches below its instant, each of them entirely *)
  Theorem seen_spec es s :
    forallb (fun e => negb (is_bump e)) es = true -> crun n cinit es = Some s ->
    forall q i, In (q, i) (seen s) <-> q < c_vis s /\ i < n.
  Proof.
    intros NB R q i.
    assert (I : CInv s).
    { apply (crun_inv CInv es) with (s := cinit); [|apply cinv_init|exact R].
      intros s0 e s1 He. apply cinv_step, negb_true_iff. exact (proj1 (forallb_forall _ _) NB e He). }
    destruct I as [V D M]. unfold seen. rewrite filter_In, M, N.ltb_lt. cbn [fst].
    (* the batch in flight is not below the instant *)
    assert (A : q < c_vis s -> applied s q = n).
    { intros Hq. unfold applied. destruct (c_inflight s) as [[|q' k|]|]; try reflexivity.
      destruct (D q' k eq_refl) as [B _]. destruct (N.eqb_spec q q'); [lia|reflexivity]. }
    split.
    - intros [[_ Hi] Hq]. rewrite (A Hq) in Hi. now split.
    - intros [Hq Hi]. rewrite (A Hq). repeat split; [lia|exact Hi|exact Hq].
  Qed.

  Corollary snapshot_atomic es s :
    forallb (fun e => negb (is_bump e)) es = true -> crun n cinit es = Some s ->
    forall q i, In (q, i) (seen s) -> forall j, j < n -> In (q, j) (seen s).
  Proof. intros NB R q i Hin j Hj. apply (seen_spec es s NB R). apply (seen_spec es s NB R) in Hin. tauto. Qed.

  (* ---- C14 (partial): the order in which writes reach the memtable is the seqno order, which is the order in which the
     journal mutex was taken; nothing applied is ever lost — for EVERY interleaving, version-upgrade bumps included ---- *)
  Definition newest_first (l : list (N * N)) : Prop := StronglySorted (fun a b => fst b <= fst a) l.

  Record LInv (s : cst) : Prop := {
    li_sorted : newest_first (c_mem s);
    li_fresh : forall p, In p (c_mem s) -> fst p < c_seq s;
    li_drawn : forall q k, c_inflight s = Some (PDrawn q k) -> q < c_seq s /\ forall p, In p (c_mem s) -> fst p <= q
  }.

  Lemma linv_init : LInv cinit.
  Proof. constructor; cbn; [constructor|intros p []|discriminate]. Qed.

  Lemma linv_step s e s' : LInv s -> step s e s' -> LInv s'.
  Proof.
    intros [S F D] H. destruct H as [E|E|q k E L|q E|q E| |]; try destruct (D _ _ E) as [D1 D2];
      (* acquire, publish and release leave memory and counter alone and do not end in PDrawn *)
      try (constructor; [exact S|exact F|discriminate]).
    - constructor; cbn; [exact S|intros p I; apply N.lt_lt_add_r, F, I|].
      intros q k H. injection H as <- <-. split; [apply N.lt_add_pos_r; reflexivity|]. intros p I. apply N.lt_le_incl, F, I.
    - constructor; cbn.
      + constructor; [exact S|]. apply Forall_forall, D2.
      + intros p [<-|I]; [exact D1|exact (F p I)].
      + intros q0 k0 H. injection H as <- <-. split; [exact D1|]. intros p [<-|I]; [reflexivity|exact (D2 p I)].
    - constructor; assumption.
    - constructor; cbn; [exact S|intros p I; apply N.lt_lt_add_r, F, I|].
      intros q k E. destruct (D q k E) as [D1 D2]. split; [apply N.lt_lt_add_r, D1|exact D2].
  Qed.

  Theorem apply_order_is_seqno_order es s : crun n cinit es = Some s -> newest_first (c_mem s).
  Proof.
    intros H. exact (li_sorted _ (crun_inv LInv es (fun s e s' _ => linv_step s e s') cinit s linv_init H)).
  Qed.

  Theorem nothing_applied_is_lost es : forall s s', crun n s es = Some s' ->
    (forall p, In p (c_mem s) -> In p (c_mem s')) /\ c_seq s <= c_seq s'.
  Proof.
    intros s s'. apply (crun_inv (fun s' => (forall p, In p (c_mem s) -> In p (c_mem s')) /\ c_seq s <= c_seq s'));
      [|split; [auto|reflexivity]].
    intros s1 e s2 _ [I L] H. destruct H; cbn; split; auto; lia.
  Qed.
End Steps.

(* with the bump (lsm-tree's version upgrade) the statement fails: a two-item batch, torn *)
Example bump_refutes :
  exists s, crun 2 cinit [EAcq; EDraw; EApply; EBump; ESnap] = Some s /\
            In (0, 0) (seen s) /\ ~ In (0, 1) (seen s).
Proof.
  eexists. split; [vm_compute; reflexivity|]. split; [vm_compute; left; reflexivity|].
  vm_compute. intros [H|[]]. discriminate.
Qed.
