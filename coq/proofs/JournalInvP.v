(* JournalInvP.v — journal completeness (C02 / C10 at the level of the database model): in every reachable state, every
   entry that still lives only in a memtable of a registered, undeleted keyspace has a batch with its seqno in a journal
   file that still exists: a journal file is unlinked only when nothing in it is still needed.  The invariant (MJ) is
   checked on the primitive updates of ReachP.v ([prim_MJ]). *)
From FJ Require Import Db LsmP OrderP DbOrderP ReachP RefineP RecoverP RecoverInvP.

Definition live (d : db) (ks : kspace) : Prop :=
  In ks (d_kss d) /\ In (k_id ks) (map snd (d_map d)) /\ k_deleted ks = false.
Definition has_seq (bs : list rbatch) (s : N) : Prop := exists b, In b bs /\ rb_seqno b = s.
Definition M2 (d : db) : Prop := forall ks e, live d ks -> In e (memsrc (k_tree ks)) -> has_seq (J d) (es e).
Definition M3 (d : db) : Prop := forall j ks e, In j (d_sealed d) -> live d ks -> In e (memsrc (k_tree ks)) ->
  has_seq (sj_batches j) (es e) -> exists l, In (k_id ks, l) (sj_wm j) /\ es e <= l.
Definition MJ (d : db) : Prop := M2 d /\ M3 d.

Definition msub (t' t : tree) : Prop := forall e, In e (memsrc t') -> In e (memsrc t).
Lemma msub_refl t : msub t t.
Proof. intros e I. exact I. Qed.
Lemma msub_trans a b c : msub a b -> msub b c -> msub a c.
Proof. intros H1 H2 e I. apply H2, H1, I. Qed.

(* every operation but an append only moves memtable entries into the tables or drops them *)
Lemma msub_apply t o : ids_ok t -> (forall e, o <> TAppend e) -> msub (apply_top t o) t.
Proof.
  intros OK NA e. unfold msub. rewrite !memsrc_srcs.
  destruct o as [x| |W s|W s ev f|s|g items|W]; cbn [apply_top]; [destruct (NA x eq_refl)|..].
  - rewrite srcs_rotate by exact OK. destruct (mem_of t _); auto.
  - destruct (srcs_flush W s t) as [->| ->]; [auto|].
    unfold srcs. rewrite app_comm_cons, removelast_last. cbn [removelast concat]. rewrite app_nil_r. intros I. apply in_or_app. now left.
  - rewrite srcs_compact. unfold srcs. rewrite !app_comm_cons, !removelast_last. auto.
  - rewrite srcs_clear. intros [].
  - rewrite srcs_register. unfold srcs. rewrite !app_comm_cons, !removelast_last. auto.
  - rewrite srcs_maint. auto.
Qed.
Lemma msub_rotate t : TInv t -> msub (fst (t_rotate t)) t.
Proof. intros T. apply (msub_apply t TRotate (ti_ids _ T)). discriminate. Qed.
Lemma memsrc_maint W t : memsrc (vh_maintenance W t) = memsrc t.
Proof. rewrite !memsrc_srcs, srcs_maint. reflexivity. Qed.
Lemma memsrc_clear s t : memsrc (t_clear s t) = [].
Proof. rewrite memsrc_srcs, srcs_clear. reflexivity. Qed.
Lemma msub_clear s t t0 : msub (t_clear s t) t0.
Proof. intros e I. rewrite memsrc_clear in I. destruct I. Qed.
Lemma msub_ingest_tree t s g ents : TInv t -> msub (ingest_tree t s g ents) t.
Proof.
  intros T. rewrite ingest_tree_run. cbn [fold_left]. pose proof (ti_ids _ T) as OK.
  (* one step per operation: rotate, flush, register *)
  do 3 (eapply msub_trans; [apply msub_apply; [auto using ids_ok_apply|discriminate]|]). apply msub_refl.
Qed.

Lemma mem_of_append_in t e id y : In y (mem_of (t_append t e) id) -> y = e \/ In y (mem_of t id).
Proof.
  destruct (N.eq_dec id (v_active (latest t))) as [->|NE]; [|rewrite mem_of_append_other by exact NE; auto].
  rewrite mem_of_append_active. destruct (find _ _); [|intros []].
  intros [<-|I]; [now left|]. apply filter_In in I. tauto.
Qed.
Lemma memsrc_append t e y : In y (memsrc (t_append t e)) -> y = e \/ In y (memsrc t).
Proof.
  unfold memsrc. rewrite latest_append. intros I. apply in_app_or in I as [I|I].
  - apply mem_of_append_in in I as [->|I]; [now left|right; apply in_or_app; now left].
  - apply in_flat_map in I as [id [Iid I]]. apply mem_of_append_in in I as [->|I]; [now left|right].
    apply in_or_app. right. apply in_flat_map. eauto.
Qed.

Lemma t_highest_mem_bound t e : In e (memsrc t) -> exists l, t_highest_mem t = Some l /\ es e <= l.
Proof. intros I. apply (t_highest_mem_le t e) in I. destruct (t_highest_mem t) as [l|]; [eauto|destruct I]. Qed.

Lemma max_seq_in l : forall m, max_seq l = Some m -> exists e, In e l /\ es e = m.
Proof.
  unfold max_seq. apply (fold_left_inv _ (fun acc => forall m, acc = Some m -> exists e, In e l /\ es e = m)); [|discriminate].
  intros [a|] b Ib H m [= <-]; [|eauto]. destruct (N.max_spec a (es b)) as [[_ ->]|[_ ->]]; eauto.
Qed.

Lemma mem_above_persisted t e p : TInv t -> In e (memsrc t) -> t_highest_persisted t = Some p -> p < es e.
Proof.
  intros T I HP. unfold t_highest_persisted in HP. destruct (max_seq_in _ _ HP) as [y [Iy <-]]. apply (ord_tables_lt t e y T I Iy).
Qed.

(* ---- the generic step ----
   [krel s d d']: every keyspace of d' has an empty memory, or comes from a keyspace of d with the same id that is no more
   deleted than it, and its memtable entries were there already or carry the seqno s (s = None: no new entries at all).
   [MJ_step]: MJ passes from d to d' when (1) krel s d d', (2) the registered ids of d' were registered in d, (3) the
   journal lost no seqno, (4) the seqno s of new entries is in the journal of d' and in no sealed journal of d, and (5) the
   sealed journals are the same. *)
Definition krel (s : option N) (d d' : db) : Prop :=
  forall k', In k' (d_kss d') -> memsrc (k_tree k') = [] \/
    exists k, In k (d_kss d) /\ k_id k' = k_id k /\ (k_deleted k' = false -> k_deleted k = false) /\
      forall e, In e (memsrc (k_tree k')) -> In e (memsrc (k_tree k)) \/ (match s with Some x => es e = x | None => False end).

Lemma MJ_step s d d' : krel s d d' ->
  (forall k', In k' (d_kss d') -> In (k_id k') (map snd (d_map d')) -> In (k_id k') (map snd (d_map d)) \/ memsrc (k_tree k') = []) ->
  (forall x, has_seq (J d) x -> has_seq (J d') x) ->
  (match s with Some x => has_seq (J d') x /\ (forall j, In j (d_sealed d) -> ~ has_seq (sj_batches j) x) | None => True end) ->
  d_sealed d' = d_sealed d -> MJ d -> MJ d'.
Proof.
  intros KR MAP JJ NEW SE [A B].
  assert (PRE : forall k' e, live d' k' -> In e (memsrc (k_tree k')) ->
            exists k, live d k /\ k_id k' = k_id k /\ (In e (memsrc (k_tree k)) \/ match s with Some x => es e = x | None => False end)).
  { intros k' e [Ik [Im Dl]] Ie. destruct (KR k' Ik) as [Z|[k [I0 [Eid [Dd Sub]]]]]; [rewrite Z in Ie; destruct Ie|].
    destruct (MAP k' Ik Im) as [Im0|Z]; [|rewrite Z in Ie; destruct Ie].
    exists k. split; [split; [exact I0|split; [rewrite <- Eid; exact Im0|apply Dd, Dl]]|]. split; [exact Eid|apply Sub, Ie]. }
  split.
  - intros k' e L Ie. destruct (PRE k' e L Ie) as [k [L0 [_ [Ie0|En]]]]; [apply JJ, (A k e L0 Ie0)|].
    destruct s as [x|]; [|destruct En]. rewrite En. exact (proj1 NEW).
  - intros j k' e Ij L Ie HS. rewrite SE in Ij. destruct (PRE k' e L Ie) as [k [L0 [Eid [Ie0|En]]]].
    + rewrite Eid. exact (B j k e Ij L0 Ie0 HS).
    + destruct s as [x|]; [|destruct En]. exfalso. apply (proj2 NEW j Ij). rewrite <- En. exact HS.
Qed.

Lemma krel_refl d d' : d_kss d' = d_kss d -> krel None d d'.
Proof. intros E k' I. rewrite E in I. right. exists k'. split; [exact I|]. split; [reflexivity|]. split; [auto|]. intros e Ie. now left. Qed.

(* [ks'] takes the place of [ks]: another tree for it, or the mark that it is deleted *)
Lemma krel_set d n trk ks ks' : In ks (d_kss d) -> k_id ks' = k_id ks -> (k_deleted ks' = false -> k_deleted ks = false) ->
  msub (k_tree ks') (k_tree ks) -> krel None d (upd d n trk (set_ks d ks')).
Proof.
  intros Iks E D M k' I. cbn [d_kss upd] in I. unfold set_ks in I. apply in_map_iff in I as [x [<- Ix]]. right.
  destruct (k_id x =? k_id ks'); [exists ks|exists x]; repeat split; auto.
Qed.

(* premise (2) of [MJ_step] when the registry is unchanged *)
Lemma map_same d d' : d_map d' = d_map d -> forall k', In k' (d_kss d') -> In (k_id k') (map snd (d_map d')) -> In (k_id k') (map snd (d_map d)) \/ memsrc (k_tree k') = [].
Proof. intros E k' _ I. rewrite E in I. now left. Qed.

Lemma has_seq_app_l a b x : has_seq a x -> has_seq (a ++ b) x.
Proof. intros [y [I E]]. exists y. split; [apply in_or_app; now left|exact E]. Qed.
Lemma has_seq_app_r a b x : has_seq b x -> has_seq (a ++ b) x.
Proof. intros [y [I E]]. exists y. split; [apply in_or_app; now right|exact E]. Qed.

Lemma MJ_set d n trk ks ks' : In ks (d_kss d) -> k_id ks' = k_id ks -> (k_deleted ks' = false -> k_deleted ks = false) ->
  msub (k_tree ks') (k_tree ks) -> MJ d -> MJ (upd d n trk (set_ks d ks')).
Proof.
  intros Iks E D M H. apply (MJ_step None d); [apply (krel_set d _ _ ks); assumption|apply map_same; reflexivity|auto|exact I|reflexivity|exact H].
Qed.
Lemma MJ_ext d d' : d_kss d' = d_kss d -> d_map d' = d_map d -> J d' = J d -> d_sealed d' = d_sealed d -> MJ d -> MJ d'.
Proof.
  intros E1 E2 E3 E4 H. apply (MJ_step None d); [apply krel_refl, E1|apply map_same, E2|intros x HS; rewrite E3; exact HS|exact I|exact E4|exact H].
Qed.

(* sealing: the watermarks cover every memtable entry of every registered keyspace *)
Lemma MJ_sealed d : UQ d -> MJ d -> MJ (upd_sealed d [] (d_sealed d ++ [{| sj_batches := d_active d; sj_wm := build_wm d |}])).
Proof.
  intros U [A B]. split.
  - intros ks e L Ie. rewrite J_sealed. exact (A ks e L Ie).
  - intros j ks e Ij L Ie HS. cbn [d_sealed upd_sealed] in Ij. apply in_app_or in Ij. destruct Ij as [Ij|[<-|[]]]; [exact (B j ks e Ij L Ie HS)|].
    cbn [sj_wm]. destruct L as [Ik [Im _]]. cbn [d_kss d_map upd_sealed] in *.
    destruct (t_highest_mem_bound _ _ Ie) as [l [HM Ll]]. exists l. split; [|exact Ll].
    unfold build_wm. apply in_map_iff in Im as [p [Ep Ip]]. apply in_flat_map. exists p. split; [exact Ip|].
    rewrite Ep, ks_of_kfind, (kfind_nodup _ _ (proj1 U) Ik), HM. now left.
Qed.
Lemma MJ_seal d : UQ d -> MJ d -> MJ (maybe_seal d).
Proof. intros U H. unfold maybe_seal. destruct (_ && _); [apply MJ_sealed; assumption|exact H]. Qed.

(* eviction: a sealed journal goes only when no registered keyspace still has an entry of it in memory *)
Lemma MJ_evict d : UQ d -> DInv d -> MJ d -> MJ (journal_maintenance d).
Proof.
  intros U DI [A B]. destruct (evict_loop_split d (d_sealed d)) as [pre [E EV]].
  split.
  - intros ks e L Ie. destruct (A ks e L Ie) as [b [Ib Eb]]. exists b. split; [|exact Eb]. unfold J in *.
    cbn [d_sealed d_active journal_maintenance]. rewrite E, map_app, concat_app, <- app_assoc in Ib.
    apply in_app_or in Ib. destruct Ib as [Ib|Ib]; [|exact Ib].
    (* b lies in an evicted journal j: impossible, since M3 gives a watermark l >= es e of j, [evictable] a persisted p >= l,
       and a memtable entry is above everything persisted *)
    exfalso. rewrite <- flat_map_concat_map in Ib. apply in_flat_map in Ib as [j [Ij Ibj]].
    assert (Ijs : In j (d_sealed d)) by (rewrite E; apply in_or_app; now left).
    destruct (B j ks e Ijs L Ie (ex_intro _ b (conj Ibj Eb))) as [l [Iw Ll]].
    pose proof (EV j Ij) as V. unfold evictable in V. rewrite forallb_forall in V. specialize (V _ Iw). cbn [fst snd] in V.
    destruct L as [Ik [_ Dl]]. rewrite ks_of_kfind, (kfind_nodup _ _ (proj1 U) Ik), Dl in V. destruct (t_highest_persisted (k_tree ks)) as [p|] eqn:HP; [|discriminate].
    pose proof (mem_above_persisted _ _ _ (proj1 (DI ks Ik)) Ie HP) as Ab. clear -V Ll Ab. lia.
  - intros j ks e Ij L Ie HS. cbn [d_sealed journal_maintenance] in Ij. apply (B j ks e); [rewrite E; apply in_or_app; now right|exact L|exact Ie|exact HS].
Qed.

Lemma JS_below d j x : JS d -> In j (d_sealed d) -> has_seq (sj_batches j) x -> x < d_seqno d.
Proof.
  intros [_ B] Ij [b [Ib <-]]. apply B. unfold J. apply in_or_app. left. rewrite <- flat_map_concat_map. apply in_flat_map. exists j. auto.
Qed.

(* the memtable entries of a committed batch carry the seqno of the batch just appended to the journal *)
Lemma MJ_commit d ji mi : DInv d -> JS d -> MJ d -> MJ (commit_batch d ji mi).
Proof.
  intros _ JSd H. assert (E : J (commit_batch d ji mi) = J d ++ [mk_batch (d_seqno d) ji []]) by apply J_snoc.
  apply (MJ_step (Some (d_seqno d)) d); [|apply map_same; reflexivity| | |reflexivity|exact H].
  - intros k' I. right. revert k' I. apply fold_apply_inv.
    + intros k it [k0 [I0 [E0 [D0 S0]]]]. exists k0. repeat split; auto. intros e Ie.
      destruct (memsrc_append _ _ _ Ie) as [->|Io]; [right; reflexivity|apply S0, Io].
    + intros k Ik. exists k. repeat split; auto.
  - intros x HS. rewrite E. apply has_seq_app_l, HS.
  - split; [rewrite E; apply has_seq_app_r; eexists; split; [now left|reflexivity]|].
    intros j Ij HS. pose proof (JS_below d j _ JSd Ij HS). lia.
Qed.

Lemma MJ_unreg d name mid : MJ d -> MJ (unregister d name mid).
Proof.
  intros H. apply (MJ_step None d); [apply krel_refl; reflexivity| |auto|exact I|reflexivity|exact H].
  intros k' _ Im. left. cbn in Im. rewrite in_map_iff in *. destruct Im as [p [E Ip]]. apply filter_In in Ip as [Ip _]. eauto.
Qed.
Lemma MJ_mark d id ks : ks_of d id = Some ks -> MJ d -> MJ (upd d (d_seqno d) (d_trk d) (set_ks d (mark_deleted ks))).
Proof. intros K. apply (MJ_set d _ _ ks); [exact (ks_of_in _ _ _ K)|reflexivity|discriminate|apply msub_refl]. Qed.

(* only a committed batch needs the order of the journal, and maintenance commits none *)
Lemma prim_MJ d m d' : prim d m d' -> DInv d -> (m = false -> JS d) -> UQ d -> MJ d -> MJ d'.
Proof.
  intros P DI JSd U H.
  destruct P as [m q fq|m|m|m id ks K|m|m id ks o K Uo M|ji mi|cl|s L| |hs sn its txs occ|name B|name mid|id ks K].
  (* queue, publish, tracker gc and views touch nothing the invariant speaks of *)
  1, 9-11: exact (MJ_ext d _ eq_refl eq_refl eq_refl eq_refl H).
  - (* seal *) apply MJ_sealed; assumption.
  - (* evict *) apply MJ_evict; assumption.
  - (* rotate *) apply (MJ_set d _ _ ks); [exact (ks_of_in _ _ _ K)|reflexivity|auto|apply msub_rotate, DI, (ks_of_in _ _ _ K)|exact H].
  - (* version-history maintenance drops versions, no memtable *)
    apply (MJ_step None d); [|apply map_same; reflexivity|auto|exact I|reflexivity|exact H].
    intros k' Ik. cbn [d_kss upd rotate_maint] in Ik. apply in_map_iff in Ik as [k [<- Ik]]. right. exists k.
    destruct (existsb _ _); repeat split; auto. cbn [with_tree k_tree]. intros e Ie. left.
    rewrite memsrc_maint in Ie. exact Ie.
  - (* install *) apply (MJ_set d _ _ ks); [exact (ks_of_in _ _ _ K)|reflexivity|auto| |exact H].
    apply msub_apply; [apply DI, (ks_of_in _ _ _ K)|intros e ->; exact Uo].
  - (* commit *) apply MJ_commit; auto.
  - (* a Clear record: the journal only grows *)
    apply (MJ_step None d); [apply krel_refl; reflexivity|apply map_same; reflexivity| |exact I|reflexivity|exact H].
    intros x HS. unfold journal_clear. rewrite J_snoc. apply has_seq_app_l, HS.
  - (* the new keyspace has an empty tree, and its id is the one id the filter removed *)
    apply (MJ_step None d); [| |auto|exact I|reflexivity|exact H]; intros k' [<-|Ik].
    + now left.
    + right. apply filter_In in Ik as [Ik _]. exists k'. repeat split; auto.
    + now right.
    + apply filter_In in Ik as [_ NE]. intros [E|Im]; [|now left]. cbn [snd] in E. rewrite <- E, N.eqb_refl in NE. discriminate.
  - (* unregister *) apply MJ_unreg, H.
  - (* mark deleted *) apply (MJ_mark d id ks K), H.
Qed.

Lemma reach_MJ m d d' : reach m d d' -> DInv d -> (m = false -> JS d) -> UQ d -> MJ d -> MJ d'.
Proof.
  intros R DI JSd U H. apply (reach_inv m (fun x => DInv x /\ (m = false -> JS x) /\ UQ x /\ MJ x)) in R; [apply R| |auto].
  intros a b P [DIa [JSa [Ua Ha]]]. split; [exact (prim_dinv a m b P DIa)|]. split; [intros E; exact (prim_JS a m b P (JSa E))|].
  split; [exact (prim_UQ a m b P Ua)|exact (prim_MJ a m b P DIa JSa Ua Ha)].
Qed.

Lemma MJ_do_rotate d id : DInv d -> UQ d -> MJ d -> MJ (fst (do_rotate d id)).
Proof. intros DI. apply (reach_MJ true d); [apply rotate_reach|exact DI|discriminate]. Qed.
Lemma MJ_do_step d : DInv d -> UQ d -> MJ d -> MJ (fst (do_step d)).
Proof. intros DI. apply (reach_MJ true d); [apply step_reach|exact DI|discriminate]. Qed.
Lemma MJ_do_drain f d n : DInv d -> UQ d -> MJ d -> MJ (fst (do_drain f d n)).
Proof. intros DI. apply (reach_MJ true d); [apply drain_reach|exact DI|discriminate]. Qed.

Theorem wstep_MJ d o : DInv d -> JS d -> UQ d -> MJ d -> MJ (wstep d o).
Proof. intros DI JSd. apply (reach_MJ false d); [apply wstep_reach|exact DI|intros _; exact JSd]. Qed.

Lemma MJ_init mode filters : MJ (db_init mode filters).
Proof. split; [intros ks e [[] _]|intros j ks e []]. Qed.

Theorem run_MJ ops : forall d, DInv d -> JS d -> UQ d -> MJ d -> MJ (fold_left wstep ops d).
Proof. intros d DI JSd. apply (reach_MJ false d); [apply wrun_reach|exact DI|intros _; exact JSd]. Qed.

(* ... in every state the primitives reach from the empty database, in whatever order they are composed *)
Theorem reach_complete mode filters d ks e : reach false (db_init mode filters) d ->
  In ks (d_kss d) -> In (k_id ks) (map snd (d_map d)) -> k_deleted ks = false -> In e (memsrc (k_tree ks)) -> has_seq (J d) (es e).
Proof.
  intros R I1 I2 I3. apply (reach_MJ false _ d R); [apply dinv_init|intros _; apply JS_init|apply UQ_init|apply MJ_init|repeat split; assumption].
Qed.

Theorem journal_complete mode filters ops ks e :
  let d := fold_left wstep ops (db_init mode filters) in
  In ks (d_kss d) -> In (k_id ks) (map snd (d_map d)) -> k_deleted ks = false ->
  In e (memsrc (k_tree ks)) -> exists b, In b (J d) /\ rb_seqno b = es e.
Proof. intros d. apply (reach_complete mode filters), wrun_reach. Qed.

Lemma delks_UQ d h : UQ d -> UQ (fst (do_delks d h)).
Proof. apply (reach_inv false UQ (fun a b => prim_UQ a false b)), delks_reach. Qed.

Lemma MJ_delks d h : MJ d -> MJ (fst (do_delks d h)).
Proof.
  intros H. unfold do_delks. destruct (alookup h (d_handles d)) as [id|]; [|exact H]. destruct (ks_of d id) as [ks|] eqn:K; [|exact H].
  destruct (blookup _ _) as [mid|]; [apply (MJ_mark (unregister d (k_name ks) mid) id ks K), MJ_unreg, H|apply (MJ_mark d id ks K), H].
Qed.

(* [rop] without the reopen: journal completeness is not carried through recovery *)
Inductive dop := DW (o : wop) | DDel (h : N).
Definition dstep (d : db) (o : dop) : db := match o with DW w => wstep d w | DDel h => fst (do_delks d h) end.

Lemma dstep_reach d o : reach false d (dstep d o).
Proof. destruct o; [apply wstep_reach|apply delks_reach]. Qed.

Theorem drun_MJ ops : forall d, DInv d -> JS d -> UQ d -> MJ d -> MJ (fold_left dstep ops d).
Proof. intros d DI JSd. apply (reach_MJ false d); [apply run_reach, dstep_reach|exact DI|intros _; exact JSd]. Qed.

(* journal completeness for every program with keyspace deletions: deleting a keyspace releases the journals only of ITS data *)
Theorem journal_complete_with_deletion mode filters ops ks e :
  let d := fold_left dstep ops (db_init mode filters) in
  In ks (d_kss d) -> In (k_id ks) (map snd (d_map d)) -> k_deleted ks = false ->
  In e (memsrc (k_tree ks)) -> exists b, In b (J d) /\ rb_seqno b = es e.
Proof. intros d. apply (reach_complete mode filters), run_reach, dstep_reach. Qed.
