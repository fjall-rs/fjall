(* RefineP.v — the ordered-map refinement (C01): what every operation of the tree model (Lsm.v) and of the database model
   (Db.v) does to the value a latest read returns for every key: writes update exactly their key, maintenance changes
   nothing, clear empties, ingestion overlays; a compaction filter changes a key only to the filtered form of its newest
   version (C18); operations on one keyspace leave every other keyspace as it is (C12).  Then the read path (VB: t_get /
   t_scan above the counter read the latest version) and unique keyspace ids (UQ). *)
From FJ Require Import Db LsmP TxP MapP FilterP OrderP DbOrderP ReachP SortP.

(* all entries carry the same seqno (an ingested table): the first one with the key wins *)
Lemma newest_same_seq k I g l : (forall x, In x l -> es x = g) -> g < I ->
  newest k I l = find (fun x => list_eqb (ek x) k) l.
Proof.
  intros H L. induction l as [|x r IH]; [reflexivity|]. cbn [find].
  destruct (list_eqb_spec (ek x) k) as [K|K].
  - apply newest_head; [exact K|rewrite (H x (or_introl eq_refl)); exact L|]. intros y Iy _. rewrite (H x (or_introl eq_refl)), (H y (or_intror Iy)). apply N.le_refl.
  - rewrite newest_cons, newest_one. destruct (list_eqb_spec (ek x) k); [contradiction|]. apply IH. intros y Iy. apply H. now right.
Qed.

Definition rd (I : N) (t : tree) (k : bytes) : option ent := v_get_ent t (latest t) k I.
Definition abs (I : N) (t : tree) (k : bytes) : option bytes := value_of (rd I t k).

Lemma rd_srcs I t k : rd I t k = first_some (map (newest k I) (srcs t)).
Proof. apply v_get_ent_first. Qed.

Lemma rd_newest I t k : TInv t -> rd I t k = newest k I (v_all t (latest t)).
Proof. apply tinv_reads_agree. Qed.

Lemma v_all_srcs t : v_all t (latest t) = concat (srcs t).
Proof. apply v_all_concat. Qed.

Lemma below_all n t : below n t -> all_below n (v_all t (latest t)).
Proof. intros B e Ie. apply B. rewrite <- v_all_srcs. exact Ie. Qed.
Lemma below_in n t e : below n t ->
  In e (mem_of t (v_active (latest t))) \/ In e (flat_map (mem_of t) (v_sealed (latest t))) \/ In e (v_tables (latest t)) -> es e < n.
Proof.
  intros B H. apply (below_all n t B). unfold v_all.
  apply in_or_app. destruct H as [H|H]; [left; exact H|right; apply in_or_app, H].
Qed.

Lemma ord_tables_lt t a h : TInv t ->
  In a (mem_of t (v_active (latest t)) ++ flat_map (mem_of t) (v_sealed (latest t))) -> In h (v_tables (latest t)) -> es h < es a.
Proof.
  intros T Ia Ih. pose proof (ti_ord _ T) as O. unfold srcs in O. rewrite app_comm_cons in O.
  apply (ordered_cross _ _ a h O); cbn [concat]; [rewrite <- flat_map_concat_map; exact Ia|rewrite app_nil_r; exact Ih].
Qed.

(* the tables are the last source *)
Lemma rd_split I t k a s T : TInv t -> srcs t = a :: s ++ [T] -> rd I t k = comb (newest k I (concat (a :: s))) (newest k I T).
Proof. intros Ti E. rewrite (rd_newest I t k Ti), v_all_srcs, E, app_comm_cons, concat_snoc. apply newest_app. Qed.

Theorem rd_append I t e k : TInv t ->
  (forall y, In y (mem_of t (v_active (latest t))) -> es y <= es e) -> es e < I ->
  rd I (t_append t e) k = if list_eqb (ek e) k then Some e else rd I t k.
Proof.
  intros T LE LT. rewrite !rd_srcs, srcs_append by exact T. unfold srcs. cbn [map tl first_some fold_right].
  rewrite newest_insert_le by assumption. destruct (list_eqb (ek e) k); reflexivity.
Qed.

Theorem rd_rotate I t k : TInv t -> rd I (fst (t_rotate t)) k = rd I t k.
Proof. intros T. rewrite !rd_srcs, srcs_rotate by exact (ti_ids _ T). destruct (mem_of t _); reflexivity. Qed.

Theorem rd_maint I W t k : rd I (vh_maintenance W t) k = rd I t k.
Proof. rewrite !rd_srcs, srcs_maint. reflexivity. Qed.

Theorem rd_flush I n W s t k : TB n t -> n <= I -> rd I (fst (t_flush W s t)) k = rd I t k.
Proof.
  intros [T B] L. assert (T' : TInv (fst (t_flush W s t))) by exact (tinv_step t (TFlush W s) T Logic.I).   (* [Logic.I]: the instant is called I *)
  rewrite (rd_newest I _ k T'), (rd_newest I t k T), !v_all_srcs.
  destruct (srcs_flush W s t) as [->| ->]; [reflexivity|]. unfold srcs. cbn [concat].
  rewrite concat_snoc, app_nil_r, <- flat_map_concat_map, !newest_app, gc_stream_newest_flush; [reflexivity|].
  intros e Ie. apply (N.lt_le_trans _ n); [apply (below_in n t e B); auto|exact L].
Qed.

(* compaction of the tables with filter f: either the read is untouched, or it came from the tables and is now the filtered
   form of that version (nothing at all when the filtered form is a tombstone evicted at the last level) *)
Theorem rd_compact I n W s ev f t k : TB n t -> n <= I ->
  rd I (t_compact W s ev f t) k = rd I t k \/
  exists h, rd I t k = Some h /\ In h (v_tables (latest t)) /\
            (rd I (t_compact W s ev f t) k = Some (apply_filter f h) \/
             (rd I (t_compact W s ev f t) k = None /\ is_tomb (apply_filter f h) = true /\ ev = true)).
Proof.
  intros [T B] L. assert (T' : TInv (t_compact W s ev f t)) by exact (tinv_step t (TCompact W s ev f) T Logic.I).
  rewrite (rd_split I _ k _ _ _ T' (srcs_compact W s ev f t)), (rd_split I t k _ _ _ T eq_refl). set (M := concat (_ :: _)).
  assert (ABT : all_below I (v_tables (latest t))).
  { intros e Ie. apply (N.lt_le_trans _ n); [apply (below_in n t e B); auto|exact L]. }
  pose proof (gc_stream_newest W ev f k I _ ABT) as GS.
  destruct (newest k I (v_tables (latest t))) as [h|] eqn:NT; [|left; rewrite GS; reflexivity].
  apply newest_in in NT as [Ih _].
  destruct (newest k I M) as [a|] eqn:NA.
  - (* a memtable version exists: it is newer than anything in the tables *)
    left. apply newest_in in NA as [Ia _]. unfold M in Ia. cbn [concat] in Ia. rewrite <- flat_map_concat_map in Ia.
    assert (LT : es a <? es h = false) by apply N.ltb_ge, N.lt_le_incl, (ord_tables_lt t a h T Ia Ih).
    destruct GS as [->|[-> _]]; cbn [comb]; [rewrite (proj2 (apply_filter_slot f h))|]; rewrite LT; reflexivity.
  - right. exists h. cbn [comb]. split; [reflexivity|]. split; [exact Ih|exact GS].
Qed.

(* with a filter: the value is untouched, or it is the filtered form of the version that was read before *)
Corollary abs_compact_filter I n W s ev f t k : TB n t -> n <= I ->
  abs I (t_compact W s ev f t) k = abs I t k \/
  exists h, rd I t k = Some h /\ abs I (t_compact W s ev f t) k = value_of (Some (apply_filter f h)).
Proof.
  intros TBt L. unfold abs. destruct (rd_compact I n W s ev f t k TBt L) as [->|[h [R [_ H]]]]; [left; reflexivity|].
  right. exists h. split; [exact R|]. destruct H as [->|[-> [Tm _]]]; [reflexivity|]. cbn. rewrite Tm. reflexivity.
Qed.

Corollary abs_compact_nofilter I n W s ev t k : TB n t -> n <= I -> abs I (t_compact W s ev None t) k = abs I t k.
Proof.
  intros TBt L. destruct (abs_compact_filter I n W s ev None t k TBt L) as [E|[h [R E]]]; [exact E|].
  rewrite E, apply_filter_none. unfold abs. rewrite R. reflexivity.
Qed.

Theorem rd_clear I s t k : rd I (t_clear s t) k = None.
Proof. rewrite rd_srcs, srcs_clear. reflexivity. Qed.

Theorem rd_register I n g ents t k : TB n t -> n <= g -> g < I -> (forall e, In e ents -> es e = g) ->
  mem_of t (v_active (latest t)) = [] -> Forall (fun id => mem_of t id = []) (v_sealed (latest t)) ->
  rd I (t_register_ingest g ents t) k =
    match find (fun x => list_eqb (ek x) k) ents with Some x => Some x | None => rd I t k end.
Proof.
  intros [T B] L LI EG A S. assert (T' : TInv (t_register_ingest g ents t)) by exact (tinv_step t (TIngest g ents) T (conj A S)).
  assert (FM : concat (map (mem_of t) (v_sealed (latest t))) = []).
  { apply concat_nil_Forall, Forall_map, S. }
  rewrite (rd_split I _ k _ _ _ T' (srcs_register g ents t)), (rd_split I t k _ _ _ T eq_refl). cbn [concat]. rewrite A, FM.
  change (newest k I []) with (@None ent). cbn [app comb]. rewrite newest_app, (newest_same_seq k I g ents EG LI).
  destruct (find (fun x => list_eqb (ek x) k) ents) as [x|] eqn:F; [|reflexivity].
  apply find_some in F as [Ix _].
  destruct (newest k I (v_tables (latest t))) as [h|] eqn:NT; [|reflexivity]. cbn [comb].
  apply newest_in in NT as [Ih _].
  rewrite (EG x Ix), (proj2 (N.ltb_ge g (es h))); [reflexivity|].
  apply N.lt_le_incl, (N.lt_le_trans _ n); [apply (below_in n t h B); auto|exact L].
Qed.

(* the tree part of bulk ingestion: rotate, flush what is in memory, register the ingested table *)
Theorem rd_ingest_tree I n t s g ents k : TB n t -> n <= g -> g < I -> (forall e, In e ents -> es e = g) ->
  rd I (ingest_tree t s g ents) k =
    match find (fun x => list_eqb (ek x) k) ents with Some x => Some x | None => rd I t k end.
Proof.
  intros T L LI EG. rewrite ingest_tree_run. cbn [fold_left apply_top].
  assert (T1 : TB n (fst (t_rotate t))) by exact (tb_apply n n t TRotate T Logic.I (N.le_refl n) Logic.I).
  assert (T2 : TB n (fst (t_flush 0 s (fst (t_rotate t))))) by exact (tb_apply n n _ (TFlush 0 s) T1 Logic.I (N.le_refl n) Logic.I).
  destruct (flush0_ready s _ g ents (rotate_active_nil t)) as [A2 S2].
  rewrite (rd_register I n) by assumption. rewrite (rd_flush I n) by (exact T1 || (clear -L LI; lia)).
  rewrite rd_rotate by exact (proj1 T). reflexivity.
Qed.

Definition kfind (kss : list kspace) (id : N) : option kspace := find (fun k => k_id k =? id) kss.
Definition absk (I : N) (kss : list kspace) (id : N) (k : bytes) : option bytes :=
  match kfind kss id with Some ks => abs I (k_tree ks) k | None => None end.
Definition absd (I : N) (d : db) : N -> bytes -> option bytes := absk I (d_kss d).

Lemma ks_of_kfind d id : ks_of d id = kfind (d_kss d) id.
Proof. reflexivity. Qed.

Lemma kfind_some kss id ks : kfind kss id = Some ks -> In ks kss /\ k_id ks = id.
Proof. unfold kfind. intros H. apply find_some in H. destruct H as [A B]. split; [exact A|apply N.eqb_eq, B]. Qed.

Lemma kfind_map f kss id : (forall x, k_id (f x) = k_id x) -> kfind (map f kss) id = option_map f (kfind kss id).
Proof. apply find_id_map. Qed.

Lemma kfind_filter_ne kss n id : id <> n -> kfind (filter (fun k => negb (k_id k =? n)) kss) id = kfind kss id.
Proof.
  intros NE. unfold kfind. induction kss as [|a r IH]; cbn [filter find]; [reflexivity|].
  destruct (N.eqb_spec (k_id a) n) as [E|NE2]; cbn [negb].
  - destruct (N.eqb_spec (k_id a) id); [lia|exact IH].
  - cbn [find]. destruct (k_id a =? id); [reflexivity|exact IH].
Qed.

(* the reference: one finite map per keyspace id *)
Definition smap := N -> bytes -> option bytes.
Definition supd (m : smap) (id : N) (k : bytes) (v : option bytes) : smap :=
  fun id' k' => if (id' =? id) && list_eqb k k' then v else m id' k'.
Definition sclear (m : smap) (id : N) : smap := fun id' k' => if id' =? id then None else m id' k'.
Definition val_of (vt : vtype) (v : bytes) : option bytes := match vt with VTomb | VWeak => None | _ => Some v end.
Definition has_ks (d : db) (id : N) : bool := match ks_of d id with Some _ => true | None => false end.
Definition is_ok (o : obs) : bool := match o with ObOk => true | _ => false end.
(* [g]: does the keyspace id exist (an item for an unknown id is dropped) *)
Definition sitem (g : N -> bool) (m : smap) (it : ritem) : smap :=
  if g (ri_ks it) then supd m (ri_ks it) (ri_key it) (val_of (ri_vt it) (ri_value it)) else m.
Definition iitem_key (it : iitem) : bytes := match it with IPut k _ => k | ITomb k => k end.
Definition iitem_val (it : iitem) : option bytes := match it with IPut _ v => Some v | ITomb _ => None end.
Definition singest (m : smap) (id : N) (items : list iitem) : smap :=
  fun id' k' => if id' =? id then match find (fun it => list_eqb (iitem_key it) k') items with
                                  | Some it => iitem_val it | None => m id' k' end
                else m id' k'.

(* the reference step.  The database state is consulted only for what the caller observes or chooses: whether the call was
   accepted (its result), whether a keyspace id exists, and which id a new keyspace receives. *)
Definition sstep (d : db) (o : wop) (m : smap) : smap :=
  match o with
  | WKs h name => match blookup name (d_map d) with Some _ => m | None => sclear m (d_next_id d) end
  | WWrite id k v vt mvt => if is_ok (snd (write_one d id k v vt mvt)) then supd m id k (val_of mvt v) else m
  | WBatch ji mi => fold_left (sitem (has_ks d)) mi m
  | WClear id => if is_ok (snd (do_clear d id)) then sclear m id else m
  | WIngest id items => if has_ks d id then match items with [] => m | _ => singest m id items end else m
  | WRotate' _ | WStep | WDrain _ | WMajor _ _ => m
  end.

Definition meq (m1 m2 : smap) : Prop := forall id k, m1 id k = m2 id k.

Lemma sitem_ext g m1 m2 it : meq m1 m2 -> meq (sitem g m1 it) (sitem g m2 it).
Proof. intros H id k. unfold sitem, supd. destruct (g (ri_ks it)); [destruct (_ && _); [reflexivity|apply H]|apply H]. Qed.
Lemma fold_sitem_ext g mi : forall m1 m2, meq m1 m2 -> meq (fold_left (sitem g) mi m1) (fold_left (sitem g) mi m2).
Proof. induction mi as [|it r IH]; intros m1 m2 H; cbn [fold_left]; [exact H|]. apply IH, sitem_ext, H. Qed.
Lemma sstep_ext d o m1 m2 : meq m1 m2 -> meq (sstep d o m1) (sstep d o m2).
Proof.
  intros H. destruct o; cbn [sstep]; try exact H.
  - destruct (blookup name (d_map d)); [exact H|]. intros ? ?. unfold sclear. destruct (_ =? _); [reflexivity|apply H].
  - destruct (is_ok _); [|exact H]. intros ? ?. unfold supd. destruct (_ && _); [reflexivity|apply H].
  - apply fold_sitem_ext, H.
  - destruct (is_ok _); [|exact H]. intros ? ?. unfold sclear. destruct (_ =? _); [reflexivity|apply H].
  - destruct (has_ks d id); [|exact H]. destruct items; [exact H|]. intros ? ?. unfold singest.
    destruct (_ =? _); [destruct (find _ _); [reflexivity|apply H]|apply H].
Qed.

Lemma absd_ext I d d' : d_kss d' = d_kss d -> meq (absd I d') (absd I d).
Proof. intros E i k0. unfold absd. rewrite E. reflexivity. Qed.

Lemma absd_ks I d id ks k : ks_of d id = Some ks -> absd I d id k = abs I (k_tree ks) k.
Proof. intros K. unfold absd, absk. rewrite <- ks_of_kfind, K. reflexivity. Qed.

Lemma absd_set I d n trk id ks ks' i k : ks_of d id = Some ks -> k_id ks' = k_id ks ->
  absd I (upd d n trk (set_ks d ks')) i k = if i =? id then abs I (k_tree ks') k else absd I d i k.
Proof.
  intros K E. unfold absd, absk. rewrite <- !ks_of_kfind, (ks_of_set d n trk id ks ks' i K E). destruct (i =? id); reflexivity.
Qed.

Lemma val_of_ent k s vt v : value_of (Some (mkEnt k s vt v)) = val_of vt v.
Proof. destruct vt; reflexivity. Qed.

Lemma sitem_at g m it id k :
  sitem g m it id k = if g (ri_ks it) && (id =? ri_ks it) && list_eqb (ri_key it) k then val_of (ri_vt it) (ri_value it) else m id k.
Proof. unfold sitem, supd. destruct (g (ri_ks it)); reflexivity. Qed.

Lemma apply_item_abs I s g kss it : s < I -> (forall ks, In ks kss -> P s (k_tree ks)) ->
  (forall id, g id = match kfind kss id with Some _ => true | None => false end) ->
  meq (absk I (apply_item s kss it)) (sitem g (absk I kss) it).
Proof.
  intros L HP G id k. rewrite sitem_at, G. unfold absk, apply_item. rewrite kfind_map by (intros x; destruct (k_id x =? ri_ks it); reflexivity).
  destruct (kfind kss id) as [ks|] eqn:K; [|destruct (N.eqb_spec id (ri_ks it)) as [<-|]; [rewrite K|rewrite Bool.andb_false_r]; reflexivity].
  pose proof (kfind_some _ _ _ K) as [Iks E]. cbn [option_map]. rewrite E. destruct (N.eqb_spec id (ri_ks it)) as [<-|]; [|rewrite Bool.andb_false_r; reflexivity].
  (* [P s]: the active memtable holds nothing above s (the items of one batch share s), which is [rd_append]'s premise *)
  rewrite K. cbn [andb with_tree k_tree]. unfold abs. pose proof (HP ks Iks) as [T [_ HD]]. rewrite rd_append by auto.
  cbn [ek es]. destruct (list_eqb (ri_key it) k); [apply val_of_ent|reflexivity].
Qed.

Lemma fold_apply_abs I s g : s < I -> forall mi kss, (forall ks, In ks kss -> P s (k_tree ks)) ->
  (forall id, g id = match kfind kss id with Some _ => true | None => false end) ->
  meq (absk I (fold_left (apply_item s) mi kss)) (fold_left (sitem g) mi (absk I kss)).
Proof.
  intros L. induction mi as [|it r IH]; intros kss HP G; cbn [fold_left]; [intros id k; reflexivity|].
  intros id k. rewrite IH.
  - apply fold_sitem_ext. apply apply_item_abs; assumption.
  - apply (fold_apply_P s [it]), HP.
  - intros i. rewrite G. unfold apply_item. rewrite kfind_map by (intros x; destruct (k_id x =? ri_ks it); reflexivity).
    destruct (kfind kss i); reflexivity.
Qed.

Theorem commit_batch_refines I d ji mi : DInv d -> d_seqno d < I ->
  meq (absd I (commit_batch d ji mi)) (fold_left (sitem (has_ks d)) mi (absd I d)).
Proof.
  intros H L. unfold absd, commit_batch. cbn [d_kss upd upd_journal].
  apply fold_apply_abs; [exact L|intros ks Iks; apply tb_P, H, Iks|intros id; reflexivity].
Qed.

Theorem write_one_refines I d id k v vt mvt : DInv d -> d_seqno (fst (write_one d id k v vt mvt)) <= I ->
  meq (absd I (fst (write_one d id k v vt mvt))) (sstep d (WWrite id k v vt mvt) (absd I d)).
Proof.
  intros H. cbn [sstep]. unfold write_one. destruct (ks_of d id) as [ks|] eqn:K; [|intros i k0; reflexivity].
  destruct (k_deleted ks); [intros _ i k0; reflexivity|]. destruct (d_poisoned d); [intros _ i k0; reflexivity|]. cbn [fst snd is_ok].
  intros L0. assert (L : d_seqno d < I) by (cbn in L0; lia).
  intros i k0. rewrite (commit_batch_refines I d _ _ H L). cbn [fold_left]. unfold sitem. cbn [ri_ks ri_key ri_vt ri_value].
  unfold has_ks. rewrite K. reflexivity.
Qed.

Theorem do_clear_refines I d id : meq (absd I (fst (do_clear d id))) (sstep d (WClear id) (absd I d)).
Proof.
  cbn [sstep]. cbv beta delta [do_clear]. destruct (ks_of d id) as [ks|] eqn:K; [|intros i k0; reflexivity].
  destruct (d_poisoned d); [intros i k0; reflexivity|]. cbn [draw_version fst snd is_ok].
  set (d3 := upd _ _ (tr_set_visible _ _) _).   (* the state the version is drawn in: named, it is not copied into every step *)
  intros i k0.
  rewrite (absd_set I _ _ _ id ks) by (exact K || reflexivity). unfold sclear. destruct (i =? id); [|reflexivity].
  cbn [with_tree k_tree]. unfold abs. rewrite rd_clear. reflexivity.
Qed.

Lemma abs_init I k : abs I tree_init k = None.
Proof. reflexivity. Qed.

Theorem do_ks_refines I d h name : meq (absd I (fst (do_ks d h name))) (sstep d (WKs h name) (absd I d)).
Proof.
  cbn [sstep]. unfold do_ks. destruct (blookup name (d_map d)); [intros i k0; reflexivity|].
  intros i k0. unfold absd, absk. cbn [fst d_kss upd_views upd_reg draw_version upd]. unfold sclear, kfind. cbn [find k_id].
  rewrite (N.eqb_sym i). destruct (N.eqb_spec (d_next_id d) i) as [<-|NE]; [reflexivity|].
  fold (kfind (filter (fun k => negb (k_id k =? d_next_id d)) (d_kss d)) i).
  rewrite kfind_filter_ne by (intros E; exact (NE (eq_sym E))). reflexivity.
Qed.

Lemma do_ks_empty I d h name k : blookup name (d_map d) = None -> absd I (fst (do_ks d h name)) (d_next_id d) k = None.
Proof. intros B. rewrite (do_ks_refines I d h name). cbn [sstep]. rewrite B. unfold sclear. rewrite N.eqb_refl. reflexivity. Qed.

Lemma prim_seq d m d' : prim d m d' -> d_seqno d <= d_seqno d'.
Proof. intros []; try apply N.le_refl; try apply N.le_add_r. (* unregister draws two *) cbn. lia. Qed.

Lemma reach_seq m d d' : reach m d d' -> d_seqno d <= d_seqno d'.
Proof. induction 1 as [|d1 d2 _ IH P]; [apply N.le_refl|exact (N.le_trans _ _ _ IH (prim_seq _ _ _ P))]. Qed.

Lemma wstep_seq_mono d o : d_seqno d <= d_seqno (wstep d o).
Proof. apply (reach_seq false), wstep_reach. Qed.

(* a flush is invisible to reads at or above the counter it leaves; the other steps draw no seqno and are invisible to every
   read.  Hence the disjunction: rotation (no flush, any instant) takes the right side, worker steps and drains the left *)
Lemma prim_unasked_abs I d d' : prim d true d' -> DInv d -> d_seqno d' <= I \/ d_seqno d' = d_seqno d -> meq (absd I d') (absd I d).
Proof.
  intros P H L. remember true as m eqn:M. destruct P as [m q fq|m|m|m id ks K|m|m id ks o K U F| | | | | | | |]; try discriminate M;
    try (apply absd_ext; reflexivity); intros i k.
  - (* rotate *) unfold set_tree. rewrite (absd_set I _ _ _ id ks) by (exact K || reflexivity). destruct (N.eqb_spec i id) as [->|]; [|reflexivity].
    rewrite (absd_ks I d id ks k K). unfold abs. cbn [with_tree k_tree]. rewrite rd_rotate by apply H, (ks_of_in _ _ _ K). reflexivity.
  - (* maintenance *) unfold absd, absk, rotate_maint. cbn [d_kss upd]. rewrite kfind_map by (intros x; destruct (existsb _ _); reflexivity).
    destruct (kfind (d_kss d) i) as [x|]; [|reflexivity]. cbn [option_map]. destruct (existsb _ _); [|reflexivity].
    unfold abs. cbn [with_tree k_tree]. rewrite rd_maint. reflexivity.
  - (* install: a flush *) unfold install, set_tree. rewrite (absd_set I _ _ _ id ks) by (exact K || reflexivity). destruct (N.eqb_spec i id) as [->|]; [|reflexivity].
    destruct o; try (case (F M)). rewrite (absd_ks I d id ks k K). unfold abs. cbn [with_tree k_tree apply_top].
    rewrite (rd_flush I (d_seqno d)); [reflexivity|apply H, (ks_of_in _ _ _ K)|clear -L; cbn in L; lia].
Qed.

Lemma unasked_abs I d d' : reach true d d' -> DInv d -> d_seqno d' <= I \/ d_seqno d' = d_seqno d -> meq (absd I d') (absd I d).
Proof.
  intros R H. induction R as [|d1 d2 R IH P]; intros L i k; [reflexivity|].
  pose proof (prim_seq _ _ _ P). pose proof (reach_seq _ _ _ R).
  rewrite (prim_unasked_abs I d1 d2 P (reach_dinv _ _ _ R H)) by lia. apply IH. lia.
Qed.

Lemma dseq_do_rotate d id : d_seqno (fst (do_rotate d id)) = d_seqno d.
Proof.
  unfold do_rotate. destruct (ks_of d id); [|reflexivity]. destruct (t_rotate _) as [t ok]. destruct ok; reflexivity.
Qed.

Theorem do_rotate_refines I d id : DInv d -> meq (absd I (fst (do_rotate d id))) (absd I d).
Proof. intros H. apply unasked_abs; [apply rotate_reach|exact H|right; apply dseq_do_rotate]. Qed.

Theorem do_step_refines I d : DInv d -> d_seqno (fst (do_step d)) <= I -> meq (absd I (fst (do_step d))) (absd I d).
Proof. intros H L. apply unasked_abs; [apply step_reach|exact H|now left]. Qed.

Theorem do_drain_refines I fuel : forall d n, DInv d -> d_seqno (fst (do_drain fuel d n)) <= I ->
  meq (absd I (fst (do_drain fuel d n))) (absd I d).
Proof. intros d n H L. apply unasked_abs; [apply drain_reach|exact H|now left]. Qed.

Definition nofilter (d : db) : Prop := forall ks, In ks (d_kss d) -> k_filter ks = None.

(* with a compaction filter: every other keyspace is untouched; in the compacted keyspace a key keeps its value or takes the
   filtered form of the version that was read before *)
Theorem do_compact_filtered I d id ev i k0 : DInv d -> d_seqno d <= I ->
  absd I (do_compact d id ev) i k0 = absd I d i k0 \/
  exists ks h, i = id /\ ks_of d id = Some ks /\ rd I (k_tree ks) k0 = Some h /\
               absd I (do_compact d id ev) i k0 = value_of (Some (apply_filter (k_filter ks) h)).
Proof.
  intros H L. unfold do_compact. destruct (ks_of d id) as [ks|] eqn:K; [|left; reflexivity].
  destruct (v_tables (latest (k_tree ks))); [left; reflexivity|]. cbn [draw_version fst snd].
  rewrite (absd_set I _ _ _ id ks) by (exact K || reflexivity). destruct (N.eqb_spec i id) as [->|]; [|left; reflexivity].
  rewrite (absd_ks I d id ks k0 K). cbn [with_tree k_tree].
  destruct (abs_compact_filter I (d_seqno d) (W_of d) (d_seqno d) ev (k_filter ks) (k_tree ks) k0 (H ks (ks_of_in _ _ _ K)) L) as [E|[h [R E]]];
    [left; exact E|right]. exists ks, h. auto.
Qed.

Theorem do_compact_refines I d id ev : DInv d -> nofilter d -> d_seqno d <= I ->
  meq (absd I (do_compact d id ev)) (absd I d).
Proof.
  intros H NF L i k0. destruct (do_compact_filtered I d id ev i k0 H L) as [E|[ks [h [-> [K [R E]]]]]]; [exact E|].
  rewrite E, (NF ks (ks_of_in _ _ _ K)), apply_filter_none, (absd_ks I d id ks k0 K). unfold abs. rewrite R. reflexivity.
Qed.

Lemma find_ient g k items :
  find (fun x => list_eqb (ek x) k) (map (ient g) items) = option_map (ient g) (find (fun it => list_eqb (iitem_key it) k) items).
Proof.
  induction items as [|it r IH]; cbn [map find]; [reflexivity|].
  replace (ek (ient g it)) with (iitem_key it) by (destruct it; reflexivity). destruct (list_eqb (iitem_key it) k); [reflexivity|exact IH].
Qed.

Lemma abs_ingest_tree I n t s g items k : TB n t -> n <= g -> g < I ->
  abs I (ingest_tree t s g (map (ient g) items)) k
  = match find (fun it => list_eqb (iitem_key it) k) items with Some it => iitem_val it | None => abs I t k end.
Proof.
  intros T L LI. unfold abs. rewrite (rd_ingest_tree I n), find_ient; auto.
  - destruct (find _ items) as [[]|]; reflexivity.
  - apply ient_seq.
Qed.

Theorem do_ingest_refines I d id items : DInv d -> d_seqno (fst (do_ingest d id items)) <= I ->
  meq (absd I (fst (do_ingest d id items))) (sstep d (WIngest id items) (absd I d)).
Proof.
  intros H. cbn [sstep]. unfold do_ingest, has_ks. destruct (ks_of d id) as [ks|] eqn:K; [|intros _ i k0; reflexivity].
  destruct items as [|it0 its]; [intros _; apply absd_ext; reflexivity|].
  (* whatever seqnos are drawn, the keyspace gets [ingest_tree] of its tree *)
  assert (G : forall (d2 : db) s g trk n, d_kss d2 = d_kss d -> d_seqno d <= g -> g < I ->
            meq (absd I (push_msg (upd d2 n trk (set_ks d2 (with_tree ks (ingest_tree (k_tree ks) s g (map (ient g) (it0 :: its)))))) (WCompact id)))
                (singest (absd I d) id (it0 :: its))).
  { intros d2 s g trk n E2 L1 L2 i k0. unfold singest. change (absd I (push_msg ?X _)) with (absd I X).
    rewrite (absd_set I _ _ _ id ks) by (reflexivity || (unfold ks_of; rewrite E2; exact K)).
    destruct (N.eqb_spec i id) as [->|]; [|unfold absd; rewrite E2; reflexivity]. cbn [with_tree k_tree].
    rewrite (abs_ingest_tree I (d_seqno d)), (absd_ks I d id ks k0 K); auto. apply H, (ks_of_in _ _ _ K). }
  unfold ingest_tree in G. destruct (t_rotate (k_tree ks)) as [t1 b]. cbn [fst] in G.
  destruct (v_sealed (latest t1)); cbn [draw_version fst snd d_seqno push_msg upd_queue upd]; intros L.
  - apply (G _ 0 (d_seqno d)); [reflexivity|apply N.le_refl|clear -L; lia].
  - apply (G _ (d_seqno d) (d_seqno d + 1)); [reflexivity|apply N.le_add_r|clear -L; lia].
Qed.

(* no operation assigns or changes a compaction filter; without a filter table no keyspace ever has one *)
Definition NF (d : db) : Prop := d_filters d = [] /\ nofilter d.

Lemma nofilter_set d n trk ks ks' : In ks (d_kss d) -> k_filter ks' = k_filter ks -> nofilter d -> nofilter (upd d n trk (set_ks d ks')).
Proof.
  intros I E H k Ik. cbn [d_kss upd] in Ik. unfold set_ks in Ik. apply in_map_iff in Ik as [x [<- Ix]].
  destruct (k_id x =? _); [rewrite E; apply H, I|apply H, Ix].
Qed.

Lemma prim_nf d m d' : prim d m d' -> NF d -> NF d'.
Proof.
  intros P [F H]. split; [destruct P; exact F|].
  destruct P as [m q fq|m|m|m id ks K|m|m id ks o K U M|ji mi|cl|s L| |hs sn its txs occ|name B|name mid|id ks K]; try exact H;
    try (apply (nofilter_set d _ _ ks); [exact (ks_of_in _ _ _ K)|reflexivity|exact H]).
  - (* maintenance *) intros k Ik. cbn [d_kss upd rotate_maint] in Ik. apply in_map_iff in Ik as [x [<- Ix]]. destruct (existsb _ _); exact (H x Ix).
  - (* commit *) exact (fold_apply_inv _ (fun k => k_filter k = None) (fun k it E => E) mi _ H).
  - (* new keyspace: no filter table, no filter *)
    intros k I. cbn in I. destruct I as [<-|I]; [cbn [k_filter]; unfold filter_for; rewrite F; reflexivity|]. apply filter_In in I. apply H, I.
Qed.

Lemma run_nf ops d : NF d -> NF (fold_left wstep ops d).
Proof. apply (reach_inv false NF (fun a b => prim_nf a false b)), wrun_reach. Qed.
Theorem wstep_nf d o : NF d -> NF (wstep d o).
Proof. exact (run_nf [o] d). Qed.

Lemma nf_init mode : NF (db_init mode []).
Proof. split; [reflexivity|intros k []]. Qed.

(* one step: the values a latest read returns afterwards are those of the reference map after the reference step *)
Theorem wstep_refines I d o : DInv d -> nofilter d -> d_seqno (wstep d o) <= I ->
  meq (absd I (wstep d o)) (sstep d o (absd I d)).
Proof.
  intros H NFd L. pose proof (wstep_seq_mono d o) as M. destruct o; cbn [wstep] in *.
  - apply do_ks_refines.
  - apply write_one_refines; assumption.
  - apply commit_batch_refines; [exact H|cbn in L; lia].
  - apply do_clear_refines.
  - apply do_rotate_refines, H.
  - apply do_step_refines; assumption.
  - apply do_drain_refines; assumption.
  - apply do_compact_refines; [exact H|exact NFd|exact (N.le_trans _ _ _ M L)].
  - apply do_ingest_refines; assumption.
Qed.

Fixpoint srun (d : db) (ops : list wop) (m : smap) : smap :=
  match ops with
  | [] => m
  | o :: r => srun (wstep d o) r (sstep d o m)
  end.

Lemma srun_ext ops : forall d m1 m2, meq m1 m2 -> meq (srun d ops m1) (srun d ops m2).
Proof. induction ops as [|o r IH]; intros d m1 m2 H; cbn [srun]; [exact H|]. apply IH, sstep_ext, H. Qed.

Lemma run_seq_mono ops d : d_seqno d <= d_seqno (fold_left wstep ops d).
Proof. apply (reach_seq false), wrun_reach. Qed.

(* every program: reads at any instant above the final seqno counter see exactly the reference maps *)
Theorem run_refines I ops : forall d, DInv d -> NF d -> d_seqno (fold_left wstep ops d) <= I ->
  meq (absd I (fold_left wstep ops d)) (srun d ops (absd I d)).
Proof.
  induction ops as [|o r IH]; intros d H N L; cbn [fold_left srun] in *; [intros i k; reflexivity|].
  intros i k. rewrite (IH (wstep d o)); [|apply (wrun_dinv [o]), H|apply wstep_nf, N|exact L].
  apply srun_ext. apply wstep_refines; [exact H|exact (proj2 N)|].
  etransitivity; [apply run_seq_mono|exact L].
Qed.

Definition sempty : smap := fun _ _ => None.

Theorem db_refines mode ops I id k :
  let d := fold_left wstep ops (db_init mode []) in
  d_seqno d <= I -> absd I d id k = srun (db_init mode []) ops sempty id k.
Proof.
  intros d L. unfold d. rewrite (run_refines I ops (db_init mode [])); [|apply dinv_init|apply nf_init|exact L].
  apply srun_ext. intros i k0. reflexivity.
Qed.

(* scans of the latest version show exactly the keys the reference map holds, in key order *)
Theorem scan_matches_reads I d ks k v : DInv d -> In ks (d_kss d) ->
  (In (k, v) (scan_ents (v_all (k_tree ks) (latest (k_tree ks))) I) <-> abs I (k_tree ks) k = Some v).
Proof.
  intros H Iks. rewrite scan_spec. unfold abs. rewrite rd_newest by (apply H, Iks). reflexivity.
Qed.

(* frame (C12): an operation addressed to one keyspace leaves the reads of every other keyspace as they are *)
Definition op_target (d : db) (o : wop) (i : N) : Prop :=
  match o with
  | WKs _ name => blookup name (d_map d) = None /\ i = d_next_id d
  | WWrite id _ _ _ _ | WClear id | WIngest id _ => i = id
  | WBatch _ mi => exists it, In it mi /\ ri_ks it = i
  | _ => False
  end.

Lemma fold_sitem_frame g mi i k : (forall it, In it mi -> ri_ks it <> i) -> forall m, fold_left (sitem g) mi m i k = m i k.
Proof.
  induction mi as [|it r IH]; intros NT m; cbn [fold_left]; [reflexivity|].
  rewrite IH by (intros it' I'; apply NT; now right). unfold sitem, supd. destruct (g (ri_ks it)); [|reflexivity].
  destruct (N.eqb_spec i (ri_ks it)) as [E|NE]; [destruct (NT it (or_introl eq_refl) (eq_sym E))|reflexivity].
Qed.

Theorem wstep_frame I d o i k : DInv d -> nofilter d -> d_seqno (wstep d o) <= I -> ~ op_target d o i ->
  absd I (wstep d o) i k = absd I d i k.
Proof.
  intros H NFd L NT. rewrite (wstep_refines I d o H NFd L). destruct o; cbn [sstep op_target] in *; try reflexivity.
  - destruct (blookup name (d_map d)) eqn:B; [reflexivity|]. unfold sclear. destruct (N.eqb_spec i (d_next_id d)); [exfalso; apply NT; auto|reflexivity].
  - destruct (is_ok _); [|reflexivity]. unfold supd. destruct (N.eqb_spec i id); [contradiction|reflexivity].
  - apply fold_sitem_frame. intros it Iit E. apply NT. exists it. auto.
  - destruct (is_ok _); [|reflexivity]. unfold sclear. destruct (N.eqb_spec i id); [contradiction|reflexivity].
  - destruct (has_ks d id); [|reflexivity]. destruct items; [reflexivity|]. unfold singest. destruct (N.eqb_spec i id); [contradiction|reflexivity].
Qed.

(* non-vacuity: the example program of DbOrderP.v, reads of keyspace 1 after it *)
Lemma refine_example :
  let d := fold_left wstep db_example (db_init MPlain []) in
  d_seqno d <= 100 /\ absd 100 d 1 [105] = Some [9] /\ srun (db_init MPlain []) db_example sempty 1 [105] = Some [9] /\
  srun (db_init MPlain []) db_example sempty 1 [107] = None.
Proof. vm_compute. repeat split; discriminate. Qed.

(* compaction filters (C18): only the compacted keyspace, only as the verdict for the key says *)
Theorem do_compact_verdict I d id ev ks k0 : DInv d -> d_seqno d <= I -> ks_of d id = Some ks ->
  let a := absd I d id k0 in
  let a' := absd I (do_compact d id ev) id k0 in
  match k_filter ks with
  | None => a' = a
  | Some r => match rule_verdict r k0 with
              | FKeep => a' = a
              | FRemove => a' = a \/ a' = None
              | FReplace v => a' = a \/ (a <> None /\ a' = Some v)
              end
  end.
Proof.
  intros H L K a a'.
  destruct (do_compact_filtered I d id ev id k0 H L) as [E|[ks' [h [_ [K' [R E]]]]]]; fold a a' in E.
  - destruct (k_filter ks) as [r|]; [destruct (rule_verdict r k0)|]; try left; exact E.
  - rewrite K in K'. injection K' as <-.
    assert (A : a = value_of (Some h)) by (unfold a; rewrite (absd_ks I d id ks k0 K); unfold abs; rewrite R; reflexivity).
    rewrite rd_newest in R by (apply H; exact (ks_of_in _ _ _ K)). apply newest_in in R as [_ [EK _]].
    rewrite E, A. unfold apply_filter. destruct (is_tomb h) eqn:Tm.
    + destruct (k_filter ks) as [r|]; [destruct (rule_verdict r k0)|]; try left; reflexivity.
    + destruct (k_filter ks) as [r|]; [|reflexivity]. rewrite EK. destruct (rule_verdict r k0) as [| |v]; [reflexivity| |].
      * right. reflexivity.
      * right. split; [cbn; rewrite Tm; discriminate|reflexivity].
Qed.

Theorem do_compact_others I d id ev i k0 : DInv d -> d_seqno d <= I -> i <> id ->
  absd I (do_compact d id ev) i k0 = absd I d i k0.
Proof.
  intros H L NE. destruct (do_compact_filtered I d id ev i k0 H L) as [E|[ks' [h [E _]]]]; [exact E|contradiction].
Qed.

(* t_get / t_scan (what Keyspace::get / iter do at an instant) first select a super-version: the newest one whose seqno is
   below the instant.  Version seqnos are drawn from the shared counter, so for an instant above the counter that is
   the latest version, and the reads are the ones the refinement is stated for. *)
Definition vb (n : N) (t : tree) : Prop := vers t <> [] /\ v_seq (latest t) <= n.
Definition VB (d : db) : Prop := forall ks, In ks (d_kss d) -> vb (d_seqno d) (k_tree ks).

Theorem reads_select_latest n I t k : vb n t -> n < I ->
  t_get t k I = Some (abs I t k) /\ t_scan t I = Some (scan_ents (v_all t (latest t)) I).
Proof.
  intros [NE L0] LI. pose proof (N.le_lt_trans _ _ _ L0 LI) as L.
  unfold t_get, t_scan. replace (select_version t I) with (Some (latest t)); [split; reflexivity|].
  unfold select_version, latest in *. destruct (N.eqb_spec I 0) as [->|_]; [destruct (N.nlt_0_r _ L)|].
  destruct (vers t) as [|v0 r]; [destruct (NE eq_refl)|]. cbn [hd find] in *. rewrite (proj2 (N.ltb_lt _ _) L). reflexivity.
Qed.

Lemma vb_mono n m t : n <= m -> vb n t -> vb m t.
Proof. intros L [A B]. split; [exact A|exact (N.le_trans _ _ _ B L)]. Qed.
Lemma vb_init n : vb n tree_init.
Proof. split; [discriminate|apply N.le_0_l]. Qed.
Lemma vb_append n t e : vb n t -> vb n (t_append t e).
Proof. intros H. exact H. Qed.
Lemma vb_maint n W t : vb n t -> vb n (vh_maintenance W t).
Proof.
  intros [A B]. split; [|rewrite latest_maint; exact B].
  destruct (maintenance_cases W t) as [->| ->]; [exact A|apply keep_from_first_nonempty, A].
Qed.
Lemma vb_renew n t sealed : vb n t -> vb n (renew t sealed).
Proof. intros [A B]. split; [unfold renew, with_latest; cbn [vers]; destruct (vers t); discriminate|rewrite latest_renew; exact B]. Qed.
Lemma vb_rotate n t : vb n t -> vb n (fst (t_rotate t)).
Proof. intros V. rewrite t_rotate_renew. destruct (mem_of t _); [exact V|apply vb_renew, V]. Qed.
Lemma vb_clear_active n t : vb n t -> vb n (t_clear_active t).
Proof. intros V. rewrite t_clear_active_renew. destruct (mem_of t _); [exact V|apply vb_renew, V]. Qed.
Lemma vb_push n t v : v_seq v <= n -> vb n (push t v).
Proof. intros L. split; [discriminate|exact L]. Qed.
Lemma vb_flush n W s t : vb n t -> s < n -> vb n (fst (t_flush W s t)).
Proof. intros H L. destruct (t_flush_cases W s t) as [->| ->]; [exact H|apply vb_maint, vb_push, N.lt_le_incl, L]. Qed.
Lemma vb_compact n W s ev f t : vb n t -> s < n -> vb n (t_compact W s ev f t).
Proof. intros H L. destruct (t_compact_cases W s ev f t) as [->| ->]; [exact H|apply vb_maint, vb_push, N.lt_le_incl, L]. Qed.
Lemma vb_clear n s t : s < n -> vb n (t_clear s t).
Proof. intros L. split; [discriminate|apply N.lt_le_incl, L]. Qed.
Lemma vb_register n g ents t : g < n -> vb n (t_register_ingest g ents t).
Proof. intros L. split; [discriminate|apply N.lt_le_incl, L]. Qed.

(* what a tree operation stamps its version with lies below the new bound *)
Definition stamp_below (n : N) (o : tree_op) : Prop :=
  match o with TFlush _ s | TCompact _ s _ _ | TClear s | TIngest s _ => s < n | _ => True end.
Lemma vb_apply n t o : vb n t -> stamp_below n o -> vb n (apply_top t o).
Proof.
  intros V L. destruct o; cbn [apply_top]; [exact V|apply vb_rotate, V|apply vb_flush; assumption|apply vb_compact; assumption
    |apply vb_clear, L|apply vb_register, L|apply vb_maint, V].
Qed.

Lemma VB_fold s n mi kss : (forall ks, In ks kss -> vb n (k_tree ks)) -> forall ks, In ks (fold_left (apply_item s) mi kss) -> vb n (k_tree ks).
Proof. apply (fold_apply_inv s (fun k => vb n (k_tree k))). intros k it V. apply vb_append, V. Qed.

Lemma VB_commit d ji mi : VB d -> VB (commit_batch d ji mi).
Proof.
  intros H ks I. unfold commit_batch in *. cbn [d_kss d_seqno upd upd_journal] in *.
  eapply VB_fold; [|exact I]. intros k0 I0. eapply vb_mono; [|apply H, I0]. apply N.le_add_r.
Qed.

Lemma upgrade_stamp d ks o : upgrade_op d ks o -> stamp_below (d_seqno d + 1) o.
Proof. destruct o; cbn [upgrade_op stamp_below]; intros H; try exact I; decompose [and] H; subst; apply N.lt_add_pos_r; reflexivity. Qed.

Lemma prim_VB d m d' : prim d m d' -> VB d -> VB d'.
Proof.
  apply (prim_kall vb vb_mono vb_init vb_rotate vb_maint); [|exact VB_commit].
  intros d0 ks o U V. apply vb_apply; [apply (vb_mono (d_seqno d0)); [apply N.le_add_r|exact V]|apply (upgrade_stamp d0 ks), U].
Qed.

Lemma run_VB ops d : VB d -> VB (fold_left wstep ops d).
Proof. apply (reach_inv false VB (fun a b => prim_VB a false b)), wrun_reach. Qed.
Theorem wstep_VB d o : VB d -> VB (wstep d o).
Proof. exact (run_VB [o] d). Qed.
Lemma VB_init mode filters : VB (db_init mode filters).
Proof. intros ks []. Qed.

(* in a state with ordered sources and version seqnos below the counter, a point read and a scan at an instant above the
   counter read the latest version: the value [abs] speaks of, and exactly the keys that have one, in ascending order *)
Lemma latest_reads I d ks k : DInv d -> VB d -> In ks (d_kss d) -> d_seqno d < I ->
  t_get (k_tree ks) k I = Some (abs I (k_tree ks) k) /\
  exists sc, t_scan (k_tree ks) I = Some sc /\
             Sorted.StronglySorted (fun a b => bytes_ltb (fst a) (fst b) = true) sc /\
             forall k' v, In (k', v) sc <-> abs I (k_tree ks) k' = Some v.
Proof.
  intros DI V Iks L. destruct (reads_select_latest (d_seqno d) I (k_tree ks) k (V ks Iks) L) as [G S]. split; [exact G|].
  eexists. split; [exact S|]. split; [apply scan_sorted|]. intros k' v. apply (scan_matches_reads I d ks k' v DI Iks).
Qed.

(* C01 in terms of the model's read functions: after every program, a point read and a scan of any keyspace at any instant
   above the seqno counter (Keyspace::get / iter use SeqNo::MAX) return the reference map's value / the sorted map *)
Theorem db_reads_refine mode ops I ks k :
  let d := fold_left wstep ops (db_init mode []) in
  In ks (d_kss d) -> d_seqno d < I -> kfind (d_kss d) (k_id ks) = Some ks ->
  t_get (k_tree ks) k I = Some (srun (db_init mode []) ops sempty (k_id ks) k) /\
  exists sc, t_scan (k_tree ks) I = Some sc /\
             Sorted.StronglySorted (fun a b => bytes_ltb (fst a) (fst b) = true) sc /\
             forall k' v, In (k', v) sc <-> srun (db_init mode []) ops sempty (k_id ks) k' = Some v.
Proof.
  intros d Iks L KF.
  assert (AB : forall k', srun (db_init mode []) ops sempty (k_id ks) k' = abs I (k_tree ks) k').
  { intros k'. rewrite <- (db_refines mode ops I (k_id ks) k') by exact (N.lt_le_incl _ _ L). unfold absd, absk. fold d. rewrite KF. reflexivity. }
  pose proof (latest_reads I d ks k (wrun_dinv ops _ (dinv_init mode [])) (run_VB ops _ (VB_init mode [])) Iks L) as [G [sc [S [SO ME]]]].
  rewrite AB. split; [exact G|]. exists sc. split; [exact S|]. split; [exact SO|]. intros k' v. rewrite AB. apply ME.
Qed.

Definition UQ (d : db) : Prop := NoDup (map k_id (d_kss d)) /\ forall ks, In ks (d_kss d) -> k_id ks < d_next_id d.

Lemma kfind_nodup kss ks : NoDup (map k_id kss) -> In ks kss -> kfind kss (k_id ks) = Some ks.
Proof.
  unfold kfind. induction kss as [|a r IH]; intros ND I; [destruct I|]. cbn [map] in ND. apply NoDup_cons_iff in ND as [NI ND'].
  cbn [find]. destruct I as [->|I]; [rewrite N.eqb_refl; reflexivity|].
  destruct (N.eqb_spec (k_id a) (k_id ks)) as [E|NE]; [exfalso; apply NI; rewrite E; apply in_map, I|apply IH; assumption].
Qed.

Lemma ids_map f kss : (forall x, k_id (f x) = k_id x) -> map k_id (map f kss) = map k_id kss.
Proof. intros H. rewrite map_map. apply map_ext, H. Qed.
Lemma ids_set_ks d ks' : map k_id (set_ks d ks') = map k_id (d_kss d).
Proof. apply ids_map. intros x. destruct (N.eqb_spec (k_id x) (k_id ks')); congruence. Qed.
Lemma ids_fold s mi : forall kss, map k_id (fold_left (apply_item s) mi kss) = map k_id kss.
Proof.
  induction mi as [|it r IH]; intros kss; cbn [fold_left]; [reflexivity|]. rewrite IH. apply ids_map.
  intros x. destruct (k_id x =? ri_ks it); reflexivity.
Qed.

Lemma UQ_same d d' : map k_id (d_kss d') = map k_id (d_kss d) -> d_next_id d <= d_next_id d' -> UQ d -> UQ d'.
Proof.
  intros E L [A B]. split; [rewrite E; exact A|]. intros ks I.
  assert (In (k_id ks) (map k_id (d_kss d))) by (rewrite <- E; apply in_map, I).
  apply in_map_iff in H as [k0 [E0 I0]]. rewrite <- E0. exact (N.lt_le_trans _ _ _ (B k0 I0) L).
Qed.

Lemma prim_UQ d m d' : prim d m d' -> UQ d -> UQ d'.
Proof.
  intros [m0 q fq|m0|m0|m0 id ks K|m0|m0 id ks o K U _|ji mi|cl|s L| |hs sn its txs occ|name B|name mid|id ks K] H;
    try (apply (UQ_same d); [reflexivity || exact (ids_set_ks d _)|apply N.le_refl|exact H]).
  - (* maintenance *) apply (UQ_same d); [|apply N.le_refl|exact H]. apply ids_map. intros x. destruct (existsb _ _); reflexivity.
  - (* commit *) apply (UQ_same d); [apply ids_fold|apply N.le_refl|exact H].
  - (* a new keyspace takes the next id, above every id in use *)
    destruct H as [A C]. unfold UQ, new_ks. cbn [d_kss d_next_id upd_reg].
    assert (F : filter (fun k => negb (k_id k =? d_next_id d)) (d_kss d) = d_kss d).
    { clear A. induction (d_kss d) as [|a r IH]; [reflexivity|]. cbn [filter].
      rewrite (proj2 (N.eqb_neq (k_id a) (d_next_id d))) by (apply N.lt_neq, C; now left). cbn [negb].
      apply f_equal, IH. intros ks I. apply C. now right. }
    rewrite F. split.
    + cbn [map k_id]. constructor; [|exact A]. intros I. apply in_map_iff in I as [k0 [E I0]]. apply (N.lt_neq _ _ (C k0 I0)), E.
    + intros ks [<-|I]; [apply N.lt_add_pos_r; reflexivity|apply N.lt_lt_add_r, C, I].
Qed.

Lemma run_UQ ops d : UQ d -> UQ (fold_left wstep ops d).
Proof. apply (reach_inv false UQ (fun a b => prim_UQ a false b)), wrun_reach. Qed.
Theorem wstep_UQ d o : UQ d -> UQ (wstep d o).
Proof. exact (run_UQ [o] d). Qed.
Lemma UQ_init mode filters : UQ (db_init mode filters).
Proof. split; [constructor|intros ks []]. Qed.

(* [db_reads_refine] without its hypothesis on [kfind]: every keyspace object of a reachable state is the registered one for its id *)
Theorem db_reads_refine_all mode ops I ks k :
  let d := fold_left wstep ops (db_init mode []) in
  In ks (d_kss d) -> d_seqno d < I ->
  t_get (k_tree ks) k I = Some (srun (db_init mode []) ops sempty (k_id ks) k) /\
  exists sc, t_scan (k_tree ks) I = Some sc /\
             Sorted.StronglySorted (fun a b => bytes_ltb (fst a) (fst b) = true) sc /\
             forall k' v, In (k', v) sc <-> srun (db_init mode []) ops sempty (k_id ks) k' = Some v.
Proof.
  intros d Iks L. apply db_reads_refine; [exact Iks|exact L|].
  apply kfind_nodup; [|exact Iks]. exact (proj1 (run_UQ ops _ (UQ_init mode []))).
Qed.
