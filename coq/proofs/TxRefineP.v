(* TxRefineP.v — a transaction commit (single-writer or optimistic) at the level of the database model: when it is accepted it
   acts on the reference maps as its commit batch applied item by item — nothing else of the content changes — and when it is
   refused (conflict, poisoned) the content does not change at all (C08 / C07 tie to the C01 refinement). *)
From FJ Require Import Prog DbOrderP RefineP.

Theorem tx_commit_refines I d x : DInv d -> d_seqno d < I ->
  meq (absd I (fst (tx_commit as_is d x)))
      (if is_ok (snd (tx_commit as_is d x)) then fold_left (sitem (has_ks d)) (tx_items x) (absd I d) else absd I d).
Proof.
  (* closing the transaction's snapshot, pruning and extending the conflict table touch no keyspace and no seqno: whatever
     the mode, the content is that of [d], or of [commit_batch] on the keyspaces and the seqno of [d] *)
  intros DI L. pose proof (commit_batch_refines I d (tx_items x) (tx_items x) DI L) as C.
  (* the statement as a predicate [P] of the result, and [tx_commit] with its [let]s kept: the cases are taken on a small term *)
  pattern (tx_commit as_is d x). set (P := fun _ => _). cbv beta delta [tx_commit].
  destruct (tx_over x) as [|p0 over] eqn:OV.
  - unfold P, tx_items. rewrite OV. intros i k. reflexivity.
  - destruct (d_mode d); [destruct (d_poisoned d); [intros i k; reflexivity|exact C]..|].
    cbn [d_double_close as_is]. set (d2 := upd_views _ _ _ _ _ _). destruct (existsb _ (d_occ d)); [intros i k; reflexivity|].
    destruct (d_poisoned d2); [intros i k; reflexivity|exact C].
Qed.
