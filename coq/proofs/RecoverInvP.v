(* RecoverInvP.v — recovery re-establishes the invariant of the write path: for ANY disk image whose journal batches carry
   increasing seqnos and whose trees hold tables only, the keyspaces recovery produces have their sources ordered by recency
   (a record is replayed only when it is newer than everything the tables hold — the rule put in place by 3ed2a5b / dc3abc4)
   and every entry below the restored seqno counter.  Hence after a reopen point reads agree with scans, and every later
   write supersedes everything recovered (C04, C11).  Then the journal invariant JS, programs with reopen and keyspace
   deletion ([rrun_keeps]), and what deletion leaves behind across a reopen (C12). *)
From FJ Require Import Db LsmP OrderP DbOrderP ReachP SortP RefineP RecoverP.

Definition memsrc (t : tree) : list ent := mem_of t (v_active (latest t)) ++ flat_map (mem_of t) (v_sealed (latest t)).

(* everything in the memtables is below n *)
Definition QQ (n : N) (t : tree) : Prop := TInv t /\ forall y, In y (memsrc t) -> es y < n.
(* while the batch with seqno s is being replayed: sealed memtables below s, the active memtable at most s *)
Definition Q (s : N) (t : tree) : Prop :=
  TInv t /\ (forall y, In y (flat_map (mem_of t) (v_sealed (latest t))) -> es y < s) /\
  (forall y, In y (mem_of t (v_active (latest t))) -> es y <= s).

Lemma QQ_Q n s t : n <= s -> QQ n t -> Q s t.
Proof.
  intros L [T M]. unfold memsrc in M. split; [exact T|].
  split; intros y Iy; assert (es y < n) by (apply M, in_or_app; auto); lia.
Qed.
Lemma Q_QQ s t : Q s t -> QQ (s + 1) t.
Proof.
  intros [T [A B]]. split; [exact T|]. intros y Iy. unfold memsrc in Iy. apply in_app_or in Iy.
  destruct Iy as [Iy|Iy]; [specialize (B y Iy)|specialize (A y Iy)]; lia.
Qed.
Lemma QQ_mono n m t : n <= m -> QQ n t -> QQ m t.
Proof. intros L [T M]. split; [exact T|]. intros y Iy. specialize (M y Iy). lia. Qed.

(* the memtables are all the sources but the last *)
Lemma memsrc_srcs t : memsrc t = concat (removelast (srcs t)).
Proof.
  unfold memsrc, srcs. rewrite app_comm_cons, removelast_last. cbn [concat]. rewrite flat_map_concat_map. reflexivity.
Qed.

(* a record newer than everything the tables hold is appended: the discipline of the write path holds for it *)
Lemma Q_append s t e : Q s t -> es e = s ->
  (forall p, t_highest_persisted t = Some p -> p < s) -> Q s (t_append t e).
Proof.
  intros [T [A B]] E HP.
  (* with the tables below s as well, Q is the invariant P of a batch being committed *)
  assert (S : forall t, concat (tl (srcs t)) = flat_map (mem_of t) (v_sealed (latest t)) ++ v_tables (latest t)).
  { intros t0. unfold srcs. cbn [tl]. rewrite concat_app, <- flat_map_concat_map. cbn [concat]. now rewrite app_nil_r. }
  destruct (P_append s t e) as [T' [A' B']]; [split; [exact T|split; [|exact B]]|exact E|].
  - intros y Iy. rewrite S in Iy. apply in_app_or in Iy as [Iy|Iy]; [exact (A y Iy)|].
    apply max_seq_le in Iy. unfold t_highest_persisted in HP.
    destruct (max_seq (v_tables (latest t))) as [m|]; [|destruct Iy]. specialize (HP m eq_refl). cbn in Iy. lia.
  - split; [exact T'|split; [|exact B']]. intros y Iy. apply A'. rewrite S. apply in_or_app. now left.
Qed.

Lemma Q_clear s sq t : TInv t -> Q s (t_clear sq t).
Proof.
  intros T. split; [apply (tinv_step t (TClear sq) T); exact I|].
  unfold t_clear, latest. cbn [vers hd v_active v_sealed flat_map]. split; [intros y []|].
  intros y Iy. rewrite mem_of_new in Iy. destruct Iy.
Qed.

(* the end of one sealed journal: the rebuilt memtable is sealed or dropped *)
Lemma QQ_rotate n t : QQ n t -> QQ n (fst (t_rotate t)).
Proof.
  intros [T M]. split; [apply (tinv_step t TRotate T); exact I|]. rewrite memsrc_srcs in *.
  rewrite srcs_rotate by exact (ti_ids _ T). destruct (mem_of t _); [exact M|]. unfold srcs in *. exact M.
Qed.

Fixpoint incr (lo : N) (bs : list rbatch) : Prop :=
  match bs with
  | [] => True
  | b :: r => lo <= rb_seqno b /\ incr (rb_seqno b + 1) r
  end.
Fixpoint nxt (lo : N) (bs : list rbatch) : N :=
  match bs with
  | [] => lo
  | b :: r => nxt (rb_seqno b + 1) r
  end.

Lemma incr_app bs1 : forall lo bs2, incr lo (bs1 ++ bs2) <-> incr lo bs1 /\ incr (nxt lo bs1) bs2.
Proof. induction bs1 as [|b r IH]; intros lo bs2; cbn [app incr nxt]; [tauto|]. rewrite IH. symmetry. apply and_assoc. Qed.

(* neither lemma needs the hypothesis of this section; their statements carry it *)
Section Replay.
  Variable cfg : defects.
  Hypothesis SH : d_replay_shadow cfg = false.

  Lemma QQ_clear_active n t : QQ n t -> QQ n (t_clear_active t).
  Proof using SH.
    intros [T M]. rewrite t_clear_active_renew. destruct (mem_of t (v_active (latest t))); [split; assumption|].
    split; [apply tinv_renew; [exact T|intros x []|split; [intros x y _ []|exact I]]|]. rewrite memsrc_srcs, srcs_renew by (intros x []). intros y [].
  Qed.

  Lemma nxt_ge bs : forall lo, incr lo bs -> lo <= nxt lo bs.
  Proof using SH. induction bs as [|b r IH]; intros lo H; cbn [nxt]; [apply N.le_refl|]. destruct H as [A B]. specialize (IH _ B). clear -A IH. lia. Qed.
End Replay.

(* the invariant of the replay: with the batches [rest] still to come, the memtables hold nothing at or above the seqno the
   next batch may carry; inside the batch with seqno s the active memtable may hold entries with seqno s *)
Theorem recover_tinv cfg mode filters active sealed meta dirs pn ms :
  d_replay_shadow cfg = false ->
  (forall p, In p dirs -> QQ 0 (snd p)) ->           (* what a clean close leaves: trees with empty memtables (tables only) *)
  incr 0 (concat sealed ++ active) ->                (* journal batches carry increasing seqnos, oldest journal first *)
  forall ks, In ks (d_kss (recover cfg mode filters active sealed meta dirs pn ms)) -> TInv (k_tree ks).
Proof.
  intros SH D I. rewrite recover_eq. cbn [recovered d_kss]. set (mp := name_map _).
  enough (H : exists lo, incr lo [] /\ ktrees (QQ lo) (snd (replay_all cfg meta mp sealed active (0, dir_keyspaces filters meta dirs))))
    by (destruct H as [lo [_ H]]; intros ks Iks; exact (proj1 (H ks Iks))).
  apply (replay_all_ind cfg meta mp (fun rest st => exists lo, incr lo rest /\ ktrees (QQ lo) (snd st))
                                    (fun b rest st => incr (rb_seqno b + 1) rest /\ ktrees (Q (rb_seqno b)) (snd st))); cbn [snd].
  - (* a batch begins *) intros b rest st [lo [[L R] H]]. split; [exact R|]. intros ks Iks. apply (QQ_Q lo); auto.
  - (* item *) intros b rest sq kss it _ [R H]. split; [exact R|]. revert H. apply replay_item_trees. intros t HP H. apply Q_append; auto.
  - (* clear *) intros b rest st c _ [R H]. split; [exact R|]. revert H. apply (replay_clear_trees cfg meta mp (fun _ => Q (rb_seqno b))); [auto|].
    intros n t [T _]. apply Q_clear, T.
  - (* the batch ends *) intros b rest st [R H]. exists (rb_seqno b + 1). split; [exact R|]. intros ks Iks. apply Q_QQ; auto.
  - (* a sealed journal ends *) intros wms rest sq kss [lo [R H]]. exists lo. split; [exact R|]. revert H.
    apply seal_memtables_trees; [apply (QQ_clear_active cfg SH)|apply QQ_rotate].
  - (* start *) exists 0. split; [exact I|apply dir_keyspaces_trees, D].
Qed.

Theorem recover_dinv cfg mode filters active sealed meta dirs pn ms :
  d_replay_shadow cfg = false -> d_seqno_journal cfg = false ->
  (forall p, In p dirs -> QQ 0 (snd p)) -> incr 0 (concat sealed ++ active) ->
  DInv (recover cfg mode filters active sealed meta dirs pn ms).
Proof.
  intros SH SJ D I ks Iks. split; [eapply recover_tinv; eassumption|].
  destruct (recover_seqno_above cfg mode filters active sealed meta dirs pn ms SJ) as [A _].
  intros e Ie. apply (A ks e Iks). rewrite v_all_srcs. exact Ie.
Qed.

From FJ Require Import Prog.

(* the journal of a running database: sealed journals oldest first, then the active one *)
Definition J (d : db) : list rbatch := concat (map sj_batches (d_sealed d)) ++ d_active d.
(* its batches carry increasing seqnos, all below the counter (every batch is appended under the journal lock with the
   seqno drawn there) *)
Definition JS (d : db) : Prop := incr 0 (J d) /\ forall b, In b (J d) -> rb_seqno b < d_seqno d.

Lemma incr_weaken l : forall lo lo', lo' <= lo -> incr lo l -> incr lo' l.
Proof. destruct l as [|b r]; intros lo lo' L H; cbn [incr] in *; [exact I|]. destruct H. split; [lia|assumption]. Qed.
Lemma incr_snoc l : forall lo b, incr lo l -> (forall x, In x l -> rb_seqno x < rb_seqno b) -> lo <= rb_seqno b -> incr lo (l ++ [b]).
Proof.
  induction l as [|x r IH]; intros lo b H A L; cbn [app incr] in *; [split; [exact L|exact I]|].
  destruct H as [H1 H2]. split; [exact H1|]. apply IH; [exact H2|intros y Iy; apply A; now right|].
  assert (rb_seqno x < rb_seqno b) by (apply A; now left). lia.
Qed.

Lemma JS_snoc d d' b : J d' = J d ++ [b] -> rb_seqno b = d_seqno d -> d_seqno d < d_seqno d' -> JS d -> JS d'.
Proof.
  intros E Eb L [A B]. unfold JS. rewrite E. split.
  - apply incr_snoc; [exact A|intros x Ix; rewrite Eb; apply B, Ix|lia].
  - intros x Ix. apply in_app_or in Ix. destruct Ix as [Ix|[<-|[]]]; [specialize (B x Ix); lia|lia].
Qed.
Lemma JS_suffix d d' pre : J d = pre ++ J d' -> d_seqno d <= d_seqno d' -> JS d -> JS d'.
Proof.
  intros E L [A B]. split.
  - rewrite E in A. apply incr_app in A as [_ A]. eapply incr_weaken; [|exact A]. lia.
  - intros b Ib. assert (rb_seqno b < d_seqno d); [|lia]. apply B. rewrite E. apply in_or_app. now right.
Qed.
Lemma JS_same d d' : J d' = J d -> d_seqno d <= d_seqno d' -> JS d -> JS d'.
Proof. intros E L. apply (JS_suffix d d' []). rewrite E. reflexivity. exact L. Qed.

Lemma evict_loop_split d l : exists pre, l = pre ++ evict_loop d l /\ forall j, In j pre -> evictable d j = true.
Proof.
  induction l as [|j r IH]; cbn [evict_loop]; [exists []; split; [reflexivity|intros j []]|].
  destruct (evictable d j) eqn:V; [|exists []; split; [reflexivity|intros x []]].
  destruct IH as [pre [E P]]. exists (j :: pre). split; [cbn; f_equal; exact E|]. intros x [<-|Ix]; [exact V|apply P, Ix].
Qed.
Lemma J_journal_maintenance d : exists pre, J d = pre ++ J (journal_maintenance d).
Proof.
  destruct (evict_loop_split d (d_sealed d)) as [pre [E _]]. exists (concat (map sj_batches pre)).
  unfold J, journal_maintenance. cbn [d_sealed d_active]. rewrite app_assoc, <- concat_app, <- map_app, <- E. reflexivity.
Qed.
Lemma J_sealed d a : J (upd_sealed d [] (d_sealed d ++ [{| sj_batches := d_active d; sj_wm := a |}])) = J d.
Proof. unfold J. cbn [d_sealed d_active upd_sealed]. rewrite map_app, concat_app. cbn [map concat sj_batches]. rewrite !app_nil_r. reflexivity. Qed.
Lemma J_snoc d b n trk kss : J (upd (upd_journal d (d_active d ++ [b])) n trk kss) = J d ++ [b].
Proof. apply app_assoc. Qed.

Lemma prim_JS d m d' : prim d m d' -> JS d -> JS d'.
Proof.
  intros [m0 q fq|m0|m0|m0 id ks K|m0|m0 id ks o K U _|ji mi|cl|s L| |hs sn its txs occ|name B|name mid|id ks K];
    try (apply JS_same; [reflexivity|cbn; lia]).
  - (* seal *) apply JS_same; [apply J_sealed|cbn; lia].
  - (* evict *) destruct (J_journal_maintenance d) as [pre E]. apply (JS_suffix d _ pre E). cbn. lia.
  - (* commit *) apply (JS_snoc d _ (mk_batch (d_seqno d) ji [])); [apply J_snoc|reflexivity|cbn; lia].
  - (* clear record *) apply (JS_snoc d _ (mk_batch (d_seqno d) [] cl)); [apply J_snoc|reflexivity|cbn; lia].
Qed.

Theorem wstep_JS d o : JS d -> JS (wstep d o).
Proof. apply (reach_inv false JS (fun a b => prim_JS a false b)), wstep_reach. Qed.

Lemma durable_QQ t : QQ 0 (durable_tree t).
Proof.
  split; [split|intros y []].
  - split; [discriminate|]. intros v [<-|[]]. cbn. split; [lia|intros id []].
  - intros [].
  - change (Ordered [[]; v_tables (latest t)]). split; [intros x y []|split; [intros x y _ []|exact I]].
  - exists {| m_id := 0; m_ents := [] |}. reflexivity.
Qed.

Lemma J_reopen cfg d : J (do_reopen cfg d) = J d.
Proof. unfold do_reopen. rewrite recover_eq. unfold J. cbn [recovered d_sealed d_active]. rewrite map_map, map_id. reflexivity. Qed.

(* the seqno counter after a reopen, of any state, is above every recovered entry and every journal record *)
Theorem reopen_counter_above d0 :
  let d := do_reopen as_is d0 in
  (forall ks e, In ks (d_kss d) -> In e (v_all (k_tree ks) (latest (k_tree ks))) -> es e < d_seqno d) /\
  (forall b, In b (J d) -> rb_seqno b < d_seqno d).
Proof. intros d. unfold d. rewrite J_reopen. unfold do_reopen. split; apply recover_seqno_above; reflexivity. Qed.

(* what recovery is given at a reopen: the tables of the directories that survive the close *)
Lemma reopen_dirs d (A : tree -> Prop) : (forall t, A (durable_tree t)) ->
  forall p, In p (flat_map (fun id => match ks_of d id with Some ks => [(id, durable_tree (k_tree ks))] | None => [] end) (dirs_after_close d)) -> A (snd p).
Proof. intros H p Ip. apply in_flat_map in Ip as [id [_ Ip]]. destruct (ks_of d id); [|destruct Ip]. destruct Ip as [<-|[]]. apply H. Qed.

Theorem reopen_inv d : JS d -> DInv (do_reopen as_is d) /\ JS (do_reopen as_is d).
Proof.
  intros [A _]. split.
  - unfold do_reopen. apply recover_dinv; [reflexivity|reflexivity|apply reopen_dirs, durable_QQ|exact A].
  - split; [rewrite J_reopen; exact A|apply reopen_counter_above].
Qed.

(* ---- keyspace deletion: the keyspace object keeps its tree (old handles still read it) and is marked deleted; its name and
   meta rows go; two seqnos are drawn for the meta tree ---- *)
(* deletion changes no read of any keyspace object (the deleted one is still readable through handles opened before) *)
Theorem delks_reads I d h : meq (absd I (fst (do_delks d h))) (absd I d).
Proof.
  intros i k. unfold do_delks. destruct (alookup h (d_handles d)) as [id|]; [|reflexivity].
  destruct (ks_of d id) as [ks|] eqn:K; [|reflexivity]. cbn [fst].
  assert (G : forall d1 n trk, d_kss d1 = d_kss d -> absd I (upd d1 n trk (set_ks d1 (mark_deleted ks))) i k = absd I d i k).
  { intros d1 n trk E. rewrite (absd_set I d1 n trk id ks) by (reflexivity || (unfold ks_of; rewrite E; exact K)).
    destruct (N.eqb_spec i id) as [->|]; [rewrite (absd_ks I d id ks k K)|unfold absd; rewrite E]; reflexivity. }
  destruct (blookup (k_name ks) (d_map d)); apply G; reflexivity.
Qed.

Lemma delks_registry d h id ks mid : alookup h (d_handles d) = Some id -> ks_of d id = Some ks ->
  blookup (k_name ks) (d_map d) = Some mid ->
  d_map (fst (do_delks d h)) = bremove (k_name ks) (d_map d) /\ d_meta (fst (do_delks d h)) = aremove mid (d_meta d).
Proof. intros A K B. unfold do_delks. rewrite A, K, B. split; reflexivity. Qed.

Lemma blookup_bremove n l : blookup n (bremove n l) = None.
Proof.
  unfold bremove. induction l as [|[x a] r IH]; cbn [filter blookup fst]; [reflexivity|].
  destruct (list_eqb x n) eqn:E; cbn [negb]; [exact IH|]. cbn [blookup]. rewrite E. exact IH.
Qed.
(* a deleted keyspace's name is free again, and the keyspace created under it next is a new, empty one *)
Theorem delks_then_create_is_empty I d h h2 ks id : alookup h (d_handles d) = Some id -> ks_of d id = Some ks ->
  blookup (k_name ks) (d_map d) <> None ->
  let d1 := fst (do_delks d h) in
  blookup (k_name ks) (d_map d1) = None /\
  forall k, absd I (fst (do_ks d1 h2 (k_name ks))) (d_next_id d1) k = None.
Proof.
  intros A K B d1.
  assert (E : blookup (k_name ks) (d_map d1) = None).
  { destruct (blookup (k_name ks) (d_map d)) as [mid|] eqn:Bm; [|congruence].
    unfold d1. rewrite (proj1 (delks_registry d h id ks mid A K Bm)). apply blookup_bremove. }
  split; [exact E|]. intros k. apply do_ks_empty, E.
Qed.

Inductive rop := RW (o : wop) | RReopen | RDelKs (h : N).
Definition rstep (d : db) (o : rop) : db :=
  match o with RW w => wstep d w | RReopen => do_reopen as_is d | RDelKs h => fst (do_delks d h) end.

(* what the primitives and a reopen keep, every program of writes, maintenance, keyspace deletions and reopens keeps *)
Lemma rrun_keeps (A : db -> Prop) : (forall a b, prim a false b -> A a -> A b) -> (forall d, A d -> A (do_reopen as_is d)) ->
  forall ops d, A d -> A (fold_left rstep ops d).
Proof.
  intros S R. induction ops as [|o r IH]; intros d H; cbn [fold_left]; [exact H|]. apply IH.
  destruct o as [w| |h]; cbn [rstep]; [revert H; apply (reach_inv false A S), wstep_reach|apply R, H|revert H; apply (reach_inv false A S), delks_reach].
Qed.

(* ... so the write-path invariant (sources ordered by recency, entries below the counter) and the journal invariant *)
Theorem rrun_inv ops : forall d, DInv d -> JS d -> DInv (fold_left rstep ops d) /\ JS (fold_left rstep ops d).
Proof.
  intros d H1 H2. apply (rrun_keeps (fun x => DInv x /\ JS x)); [| |split; assumption].
  - intros a b P [A B]. split; [exact (prim_dinv a false b P A)|exact (prim_JS a false b P B)].
  - intros x [_ B]. apply reopen_inv, B.
Qed.

Lemma JS_init mode filters : JS (db_init mode filters).
Proof. split; [exact I|intros b []]. Qed.

Lemma rrun_dinv mode filters ops : DInv (fold_left rstep ops (db_init mode filters)).
Proof. apply rrun_inv; [apply dinv_init|apply JS_init]. Qed.

(* C01 / C04 across reopen: after EVERY program of keyspace creation, writes, batches, clears, ingestion, rotation, worker
   steps, drains, major compaction (with any filter) AND reopens, on every keyspace the point read of every key at every
   instant returns exactly the entry the scan shows *)
Theorem reads_agree_with_reopen mode filters ops ks k I :
  let d := fold_left rstep ops (db_init mode filters) in
  In ks (d_kss d) ->
  v_get_ent (k_tree ks) (latest (k_tree ks)) k I = newest k I (v_all (k_tree ks) (latest (k_tree ks))).
Proof. intros d Iks. apply (dinv_reads_agree d); [apply rrun_dinv|exact Iks]. Qed.

(* C11: in every state such a program reaches — in particular right after a reopen — an accepted write supersedes whatever
   was there: the key reads the written value (absent for a removal), every other key of every keyspace reads as before *)
Theorem later_write_wins mode filters ops id k v vt mvt I i k' :
  let d := fold_left rstep ops (db_init mode filters) in
  let d' := fst (write_one d id k v vt mvt) in
  snd (write_one d id k v vt mvt) = ObOk -> d_seqno d' <= I ->
  absd I d' i k' = if (i =? id) && list_eqb k k' then val_of mvt v else absd I d i k'.
Proof.
  intros d d' OK L. unfold d'. rewrite (write_one_refines I d id k v vt mvt (rrun_dinv mode filters ops) L). cbn [sstep]. rewrite OK. reflexivity.
Qed.

(* non-vacuity: a program that writes, flushes, ingests over a journaled key, reopens, and writes again *)
Definition reopen_example : list rop :=
  [RW (WKs 0 [97]); RW (WWrite 1 [107] [1] VValue VValue); RW (WRotate' 1); RW WStep; RW (WWrite 1 [108] [2] VValue VValue);
   RW (WIngest 1 [IPut [107] [7]]); RReopen; RW (WWrite 1 [109] [3] VValue VValue); RReopen].
Lemma reopen_example_reads :
  let d := fold_left rstep reopen_example (db_init MPlain []) in
  absd 100 d 1 [107] = Some [7] /\ absd 100 d 1 [108] = Some [2] /\ absd 100 d 1 [109] = Some [3].
Proof. vm_compute. repeat split. Qed.

(* recovery installs versions only through replayed clears, which draw from its own running counter; the restored seqno
   counter is at least that counter, so the latest version of every recovered tree is selected by reads above the counter *)
Definition KV (n : N) (kss : list kspace) : Prop := forall ks, In ks kss -> vb n (k_tree ks).

Lemma KV_mono n m kss : n <= m -> KV n kss -> KV m kss.
Proof. intros L H ks I. eapply vb_mono; [exact L|apply H, I]. Qed.

Theorem recover_VB cfg mode filters active sealed meta dirs pn ms :
  (forall p, In p dirs -> vb 0 (snd p)) -> VB (recover cfg mode filters active sealed meta dirs pn ms).
Proof.
  intros D. rewrite recover_eq. set (st := replay_all _ _ _ _ _ _).
  assert (H : KV (fst st) (snd st)).
  { apply (replay_all_inv _ _ _ (fun st => KV (fst st) (snd st))); cbn [fst snd].
    - intros s sq kss it. apply replay_item_trees. intros t _. apply vb_append.
    - intros s st' c. apply (replay_clear_trees _ _ _ vb); intros n t; [apply vb_mono|intros _; apply vb_clear]; lia.
    - intros wms sq kss. apply seal_memtables_trees; [apply vb_clear_active|apply vb_rotate].
    - apply dir_keyspaces_trees, D. }
  intros ks Iks. eapply vb_mono; [apply recovered_seqno_above|apply H, Iks].
Qed.

Lemma reopen_VB d : VB (do_reopen as_is d).
Proof. unfold do_reopen. apply recover_VB, reopen_dirs. intros t. split; [discriminate|cbn; lia]. Qed.

Lemma rrun_VB ops d : VB d -> VB (fold_left rstep ops d).
Proof. apply (rrun_keeps VB (fun a b => prim_VB a false b)). intros x _. apply reopen_VB. Qed.

(* the model's own read functions, across reopen: in every state a program of writes, maintenance and reopens reaches, a point
   read / scan at an instant above the counter reads the latest version, where point reads and scans agree *)
Theorem reads_after_reopen mode filters ops ks k I :
  let d := fold_left rstep ops (db_init mode filters) in
  In ks (d_kss d) -> d_seqno d < I ->
  t_get (k_tree ks) k I = Some (abs I (k_tree ks) k) /\
  exists sc, t_scan (k_tree ks) I = Some sc /\
             Sorted.StronglySorted (fun a b => bytes_ltb (fst a) (fst b) = true) sc /\
             forall k' v, In (k', v) sc <-> abs I (k_tree ks) k' = Some v.
Proof.
  intros d. apply latest_reads; [apply rrun_dinv|apply rrun_VB, VB_init].
Qed.

(* without a filter table no keyspace has a filter, also after recovery and deletion *)
Lemma reopen_NF d : NF d -> NF (do_reopen as_is d).
Proof.
  intros [F _]. unfold do_reopen. rewrite recover_eq. split; [exact F|]. intros ks Iks. cbn [recovered d_kss] in Iks.
  apply (in_map k_filter) in Iks. rewrite replay_all_fields in Iks by reflexivity. cbn [snd] in Iks.
  unfold dir_keyspaces in Iks. rewrite map_map, F in Iks. apply in_map_iff in Iks as [p [E _]]. rewrite <- E. cbn.
  destruct (alookup (fst p) (d_meta d)); reflexivity.
Qed.

Lemma rrun_NF ops : forall d, NF d -> NF (fold_left rstep ops d).
Proof. apply (rrun_keeps NF (fun a b => prim_nf a false b)), reopen_NF. Qed.

(* C11 in general: whatever history of writes, maintenance, deletions and reopens came before (no filter table), every later
   sequence of operations acts on the recovered / current content exactly as on a reference map: accepted writes set their
   key, refused ones and all maintenance change nothing, clears empty, ingestion overlays *)
Theorem history_then_ops_refine mode (hist : list rop) (ops : list wop) I :
  let d1 := fold_left rstep hist (db_init mode []) in
  d_seqno (fold_left wstep ops d1) <= I ->
  meq (absd I (fold_left wstep ops d1)) (srun d1 ops (absd I d1)).
Proof. intros d1 L. apply run_refines; [apply rrun_dinv|apply rrun_NF, nf_init|exact L]. Qed.

(* the keyspaces recovery produces are exactly those whose directory has a row in the meta tree *)
Theorem recover_ids cfg mode filters active sealed meta dirs pn ms :
  map k_id (d_kss (recover cfg mode filters active sealed meta dirs pn ms))
  = map fst (filter (fun p => match alookup (fst p) meta with Some _ => true | None => false end) dirs).
Proof. rewrite recover_eq. cbn [recovered d_kss]. rewrite replay_all_fields by reflexivity. apply map_map. Qed.

Lemma alookup_aremove_same {A} k (l : list (N * A)) : alookup k (aremove k l) = None.
Proof.
  induction l as [|[x a] r IH]; cbn [aremove alookup]; [reflexivity|].
  destruct (N.eqb_spec x k); [exact IH|]. cbn [alookup]. destruct (N.eqb_spec x k); [contradiction|exact IH].
Qed.

(* deleting the keyspace a name currently maps to removes its row from the meta tree; whatever happens to its directory and
   to the journal records that still carry its id, the next recovery does not produce a keyspace object for that id *)
Theorem deleted_keyspace_gone_after_reopen cfg d h id ks :
  alookup h (d_handles d) = Some id -> ks_of d id = Some ks -> blookup (k_name ks) (d_map d) = Some id ->
  let d1 := fst (do_delks d h) in
  kfind (d_kss (do_reopen cfg d1)) id = None.
Proof.
  intros A K B d1.
  assert (M : alookup id (d_meta d1) = None).
  { unfold d1. rewrite (proj2 (delks_registry d h id ks id A K B)). apply alookup_aremove_same. }
  destruct (kfind (d_kss (do_reopen cfg d1)) id) as [k0|] eqn:F; [|reflexivity]. exfalso.
  destruct (kfind_some _ _ _ F) as [I0 E0]. apply (in_map k_id) in I0. rewrite E0 in I0.
  unfold do_reopen in I0. rewrite recover_ids in I0. apply in_map_iff in I0 as [p [Ep Ip]].
  apply filter_In in Ip as [_ Ip]. rewrite Ep, M in Ip. discriminate.
Qed.

(* ... and the journal records that still carry the deleted keyspace's id are ignored by replay (items and clears alike) *)
Theorem records_of_deleted_ignored cfg meta mp st b :
  (forall it, In it (rb_items b) -> alookup (ri_ks it) meta = None) -> (forall c, In c (rb_clears b) -> alookup c meta = None) ->
  replay_batch cfg meta mp st b = st.
Proof.
  intros HI HC. apply (replay_batch_ind cfg meta mp (fun st' => st' = st)); [..|reflexivity].
  - intros sq kss it Iit <-. unfold replay_item, replay_items. cbn [fold_left]. rewrite (HI it Iit). reflexivity.
  - intros st' c Ic <-. unfold replay_clear, replay_clears. cbn [fold_left]. rewrite (HC c Ic). reflexivity.
Qed.
