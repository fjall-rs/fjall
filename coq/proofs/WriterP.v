(* WriterP.v — what persist guarantees, for every sequence of journal writes and persists *)
From FJ Require Import Writer.
From Coq Require Import PeanoNat.

(* [w_persist] skips the flush when the writer is not dirty *)
Definition WInv (s : wst) : Prop := w_dirty s = false -> w_buf s = [].

Lemma inv_init : WInv w_init.
Proof. intros _. reflexivity. Qed.

Lemma flush_buf_eq s :
  w_buf (flush_buf s) = [] /\ w_os (flush_buf s) = w_content s /\ w_dirty (flush_buf s) = w_dirty s.
Proof. unfold flush_buf, w_content. destruct (w_buf s) eqn:E; cbn; rewrite ?E, ?app_nil_r; auto. Qed.

Lemma content_flush s : w_content (flush_buf s) = w_content s.
Proof. destruct (flush_buf_eq s) as (B & O & _). unfold w_content at 1. now rewrite B, O, app_nil_r. Qed.

Lemma content_write_all s d : w_content (w_write_all s d) = w_content s ++ d.
Proof.
  unfold w_write_all. set (s1 := if (Nat.ltb _ _) then flush_buf s else s).
  assert (C1 : w_content s1 = w_content s) by (unfold s1; destruct (Nat.ltb _ _); [apply content_flush|reflexivity]).
  rewrite <- C1. unfold w_content. destruct (Nat.leb_spec CAP (length d)) as [BIG|SMALL]; cbn [w_os w_buf].
  - (* an entry that bypasses the buffer finds it empty, so the order of bytes is kept:
       had anything been buffered, the two together would not have fitted and it was flushed *)
    assert (BE : w_buf s1 = []).
    { unfold s1. destruct (Nat.ltb_spec CAP (length (w_buf s) + length d)); [apply flush_buf_eq|].
      destruct (w_buf s); [reflexivity|cbn [length] in *; lia]. }
    rewrite BE, !app_nil_r. reflexivity.
  - apply app_assoc.
Qed.

Lemma dirty_write_all s d : w_dirty (w_write_all s d) = w_dirty s.
Proof. unfold w_write_all. destruct (Nat.ltb _ _), (Nat.leb _ _); cbn [w_dirty]; auto; apply flush_buf_eq. Qed.

Lemma write_all_fold es : forall s,
  w_content (fold_left w_write_all es s) = w_content s ++ concat es /\
  w_dirty (fold_left w_write_all es s) = w_dirty s.
Proof.
  induction es as [|e r IH]; intros s; cbn [fold_left concat]; [now rewrite app_nil_r|].
  destruct (IH (w_write_all s e)) as [C D]. rewrite C, D, content_write_all, dirty_write_all, app_assoc. auto.
Qed.

Lemma write_batch_eq s es :
  w_content (w_write_batch s es) = w_content s ++ concat es /\ w_dirty (w_write_batch s es) = true.
Proof. exact (write_all_fold es _). Qed.

Lemma content_persist s m : w_content (w_persist s m) = w_content s.
Proof. unfold w_persist. destruct (w_dirty s), m; try reflexivity; exact (content_flush s). Qed.

Theorem persist_flushes s m : WInv s -> w_buf (w_persist s m) = [] /\ crash_image (w_persist s m) = w_content s.
Proof.
  intros I. unfold w_persist, crash_image. destruct (w_dirty s) eqn:D.
  - destruct (flush_buf_eq s) as (B & O & _). destruct m; auto.
  - unfold w_content. rewrite (I D), app_nil_r. destruct m; auto.
Qed.

(* persist(SyncData|SyncAll): everything written so far survives power loss *)
Theorem persist_sync_durable s m : WInv s -> m <> PBuffer ->
  powerloss_image (w_persist s m) = w_content s.
Proof.
  intros I NB. destruct (persist_flushes s m I) as [_ <-]. unfold powerloss_image, crash_image.
  replace (w_synced (w_persist s m)) with (length (w_os (w_persist s m))); [apply firstn_all|].
  unfold w_persist. destruct (w_dirty s), m; try contradiction; reflexivity.
Qed.

Lemma inv_step s o : WInv s -> WInv (w_step s o).
Proof.
  intros I. destruct o as [es|m]; cbn [w_step].
  - intros D. rewrite (proj2 (write_batch_eq s es)) in D. discriminate.
  - intros _. apply persist_flushes, I.
Qed.

Lemma inv_run ops : forall s, WInv s -> WInv (fold_left w_step ops s).
Proof. induction ops as [|o r IH]; intros s I; cbn; [exact I|]. apply IH, inv_step, I. Qed.

Theorem powerloss_prefix s : exists tl, w_content s = powerloss_image s ++ tl.
Proof.
  exists (skipn (w_synced s) (w_os s) ++ w_buf s).
  unfold powerloss_image, w_content. now rewrite app_assoc, firstn_skipn.
Qed.

Fixpoint written (ops : list wop) : bytes :=
  match ops with
  | [] => []
  | WBatch es :: r => concat es ++ written r
  | WPersist _ :: r => written r
  end.

Theorem content_run ops : forall s, w_content (fold_left w_step ops s) = w_content s ++ written ops.
Proof.
  induction ops as [|o r IH]; intros s; cbn [fold_left written]; [now rewrite app_nil_r|].
  rewrite IH. destruct o as [es|m]; cbn [w_step].
  - rewrite (proj1 (write_batch_eq s es)), app_assoc. reflexivity.
  - rewrite content_persist. reflexivity.
Qed.

(* C02 and C09 use these at [w_init] *)
Theorem run_persist_flushes ops s m : WInv s ->
  crash_image (w_persist (fold_left w_step ops s) m) = w_content s ++ written ops.
Proof. intros I. rewrite <- content_run. apply persist_flushes, inv_run, I. Qed.

Theorem run_persist_sync_durable ops s m : WInv s -> m <> PBuffer ->
  powerloss_image (w_persist (fold_left w_step ops s) m) = w_content s ++ written ops.
Proof. intros I NB. rewrite <- content_run. apply persist_sync_durable; [apply inv_run, I|exact NB]. Qed.
