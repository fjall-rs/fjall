(* TrackerP.v — invariants of the snapshot tracker, for every sequence of
   open / clone / close / publish / gc / pullup (each nonce closed at most once). *)
From FJ Require Import Tracker.

Inductive top := TOpen | TClone (i : N) | TClose (i : N) | TPublish (s : N) | TGc | TPullup.

(* ghost state: the multiset of live nonces (their instants) *)
Fixpoint remove_one (i : N) (l : list N) : list N :=
  match l with
  | [] => []
  | x :: r => if x =? i then r else x :: remove_one i r
  end.

Definition cnt (i : N) (l : list N) : N := N.of_nat (count_occ N.eq_dec l i).

Fixpoint trow (i : N) (l : list (N * N)) : N :=
  match l with
  | [] => 0
  | (k, c) :: r => if k =? i then c else trow i r
  end.

(* one step; operations on nonces that are not live are not part of any execution (a nonce is
   cloned only while alive and closed exactly once, by its Drop) and leave the state alone *)
Definition tstep (st : tracker * list N) (o : top) : tracker * list N :=
  let (t, live) := st in
  match o with
  | TOpen => let (t', i) := tr_open t in (t', i :: live)
  | TClone i => if existsb (N.eqb i) live then (tr_clone t i, i :: live) else st
  | TClose i => if existsb (N.eqb i) live then (tr_close t i, remove_one i live) else st
  | TPublish s => (tr_publish t s, live)
  | TGc => (tr_gc t, live)
  | TPullup => (tr_pullup t, live)
  end.

Definition keys_nodup (l : list (N * N)) : Prop := NoDup (map fst l).

Record Inv (t : tracker) (live : list N) : Prop := {
  inv_nodup : keys_nodup (tdata t);
  inv_count : forall i, cnt i live = trow i (tdata t);
  inv_rows_vis : forall k c, In (k, c) (tdata t) -> k <= visible t;
  inv_wm_live : forall i, In i live -> lowest_freed t <= i - 1;
  inv_wm_vis : lowest_freed t <= visible t - 1
}.

Lemma trow_bump i j l : trow j (bump i l) = if i =? j then trow j l + 1 else trow j l.
Proof.
  induction l as [|[k c] r IH]; cbn; [now destruct (i =? j)|].
  destruct (N.eqb_spec k i) as [->|NE]; cbn; [now destruct (i =? j)|]. rewrite IH.
  destruct (N.eqb_spec k j) as [->|]; [|reflexivity]. destruct (N.eqb_spec i j); [congruence|reflexivity].
Qed.

Lemma trow_unbump i j l : trow j (unbump i l) = if i =? j then trow j l - 1 else trow j l.
Proof.
  induction l as [|[k c] r IH]; cbn; [now destruct (i =? j)|].
  destruct (N.eqb_spec k i) as [->|NE]; cbn; [now destruct (i =? j)|]. rewrite IH.
  destruct (N.eqb_spec k j) as [->|]; [|reflexivity]. destruct (N.eqb_spec i j); [congruence|reflexivity].
Qed.

Lemma trow_pos_in l i : 0 < trow i l -> In (i, trow i l) l.
Proof.
  induction l as [|[x y] r IH]; cbn; [intros H; destruct (N.nlt_0_r _ H)|].
  destruct (N.eqb_spec x i) as [->|NE]; intros H; [left; reflexivity|right; auto].
Qed.

Lemma trow_notin l i : ~ In i (map fst l) -> trow i l = 0.
Proof.
  intros H. destruct (N.eq_0_gt_0_cases (trow i l)) as [E|P]; [exact E|].
  destruct H. exact (in_map fst _ _ (trow_pos_in l i P)).
Qed.

Lemma trow_in l : keys_nodup l -> forall k c, In (k, c) l -> trow k l = c.
Proof.
  induction l as [|[x y] r IH]; intros ND k c H; [destruct H|].
  inversion ND as [|? ? Hnot ND']; subst. cbn. destruct H as [E|H].
  - inversion E; subst. now rewrite N.eqb_refl.
  - destruct (N.eqb_spec x k) as [->|NE]; [|apply IH; assumption].
    destruct Hnot. exact (in_map fst _ _ H).
Qed.

Lemma keys_bump i l k : In k (map fst (bump i l)) -> i = k \/ In k (map fst l).
Proof.
  induction l as [|[x c] r IH]; cbn; [intros [<-|[]]; now left|].
  destruct (N.eqb_spec x i) as [->|NE]; cbn; [now right|]. intros [<-|H]; [right; now left|].
  destruct (IH H) as [E|H']; [now left|right; now right].
Qed.

Lemma nodup_bump i l : keys_nodup l -> keys_nodup (bump i l).
Proof.
  unfold keys_nodup. induction l as [|[x c] r IH]; intros ND; cbn; [repeat constructor; intros []|].
  inversion ND as [|? ? Hnot ND']; subst. destruct (N.eqb_spec x i) as [->|NE]; cbn; [exact ND|].
  constructor; [|apply IH, ND']. intros H. apply keys_bump in H as [<-|H]; [congruence|contradiction].
Qed.

Lemma keys_le (l : list (N * N)) v : (forall k c, In (k, c) l -> k <= v) -> forall k, In k (map fst l) -> k <= v.
Proof. intros RV k H. apply in_map_iff in H as ([k' c] & <- & H). exact (RV _ _ H). Qed.

Lemma keys_unbump i l : map fst (unbump i l) = map fst l.
Proof. induction l as [|[x c] r IH]; cbn; [reflexivity|]. destruct (x =? i); cbn; congruence. Qed.

Lemma nodup_filter (p : N * N -> bool) l : keys_nodup l -> keys_nodup (filter p l).
Proof.
  unfold keys_nodup. induction l as [|q r IH]; intros ND; cbn; [constructor|].
  inversion ND as [|? ? Hnot ND']; subst. destruct (p q); cbn; [|apply IH, ND'].
  constructor; [|apply IH, ND']. intros H. exact (Hnot (incl_map fst (incl_filter p r) _ H)).
Qed.

Lemma trow_filter (p : N * N -> bool) l : keys_nodup l -> (forall k c, 0 < c -> p (k, c) = true) ->
  forall i, trow i (filter p l) = trow i l.
Proof.
  induction l as [|[x y] r IH]; intros ND Hp i; [reflexivity|]. inversion ND as [|? ? Hnot ND']; subst.
  cbn [filter]. destruct (p (x, y)) eqn:Px; cbn [trow]; rewrite IH by assumption; [reflexivity|].
  destruct (N.eqb_spec x i) as [->|]; [|reflexivity]. rewrite (trow_notin r i Hnot).
  destruct y; [reflexivity|]. now rewrite Hp in Px.
Qed.

Lemma cnt_cons i x l : cnt i (x :: l) = if x =? i then cnt i l + 1 else cnt i l.
Proof.
  unfold cnt. cbn [count_occ]. destruct (N.eq_dec x i) as [->|NE].
  - now rewrite N.eqb_refl, Nat2N.inj_succ, N.add_1_r.
  - now rewrite (proj2 (N.eqb_neq x i) NE).
Qed.

Lemma cnt_remove_one i j l : cnt j (remove_one i l) = if i =? j then cnt j l - 1 else cnt j l.
Proof.
  induction l as [|x r IH]; cbn [remove_one]; [now destruct (i =? j)|]. destruct (N.eqb_spec x i) as [->|NE].
  - rewrite cnt_cons. destruct (i =? j); [now rewrite N.add_sub|reflexivity].
  - rewrite !cnt_cons, IH. destruct (N.eqb_spec x j) as [->|]; [|reflexivity].
    destruct (N.eqb_spec i j); [congruence|reflexivity].
Qed.

Lemma cnt_pos i l : In i l -> 0 < cnt i l.
Proof. unfold cnt. intros H. apply (count_occ_In N.eq_dec) in H. lia. Qed.

Lemma existsb_in i l : existsb (N.eqb i) l = true -> In i l.
Proof. intros H. apply existsb_exists in H as (x & Hx & E). apply N.eqb_eq in E. now subst. Qed.

Lemma in_remove_one i j l : In j (remove_one i l) -> In j l.
Proof.
  induction l as [|x r IH]; cbn; [auto|]. destruct (x =? i); cbn; [auto|]. intros [->|H]; auto.
Qed.

Lemma live_row t live i : Inv t live -> In i live -> 0 < trow i (tdata t) /\ In (i, trow i (tdata t)) (tdata t).
Proof.
  intros I Hi. pose proof (cnt_pos i live Hi) as P. rewrite (inv_count _ _ I) in P. split; [exact P|apply trow_pos_in, P].
Qed.

Lemma live_le_visible t live i : Inv t live -> In i live -> i <= visible t.
Proof. intros I Hi. exact (inv_rows_vis _ _ I _ _ (proj2 (live_row t live i I Hi))). Qed.

Lemma inv_empty v f w : w <= v - 1 -> Inv {| visible := v; tdata := []; freed := f; lowest_freed := w |} [].
Proof. intros H. constructor; cbn; [constructor|reflexivity|intros k c []|intros i []|exact H]. Qed.

Lemma inv_init v : Inv (tr_init v) [].
Proof. apply inv_empty, N.le_0_l. Qed.

(* open is clone at the visible seqno *)
Lemma inv_clone t live i : Inv t live -> i <= visible t -> lowest_freed t <= i - 1 -> Inv (tr_clone t i) (i :: live).
Proof.
  intros [ND CT RV WL WV] V W. constructor; cbn [tr_clone tdata visible lowest_freed].
  - apply nodup_bump, ND.
  - intros j. now rewrite cnt_cons, trow_bump, CT.
  - intros k c H. apply (in_map fst), (keys_bump i _ k) in H as [<-|H]; [exact V|exact (keys_le _ _ RV k H)].
  - intros j [<-|H]; [exact W|exact (WL j H)].
  - exact WV.
Qed.

Lemma inv_raise_visible t live v : Inv t live -> visible t <= v ->
  Inv {| visible := v; tdata := tdata t; freed := freed t; lowest_freed := lowest_freed t |} live.
Proof.
  intros [ND CT RV WL WV] L. constructor; cbn [tdata visible lowest_freed]; try assumption.
  - intros k c H. exact (N.le_trans _ _ _ (RV k c H) L).
  - exact (N.le_trans _ _ _ WV (N.sub_le_mono_r _ _ 1 L)).
Qed.

Lemma inv_publish t live s : Inv t live -> Inv (tr_publish t s) live.
Proof. intros I. exact (inv_raise_visible t live _ I (N.le_max_l _ _)). Qed.
(* Db.v's [draw_version] sets the visible seqno this way; it is no operation of [tstep] *)
Lemma inv_set_visible t live s : Inv t live -> Inv (tr_set_visible t s) live.
Proof. intros I. exact (inv_raise_visible t live _ I (N.le_max_l _ _)). Qed.

(* the [lowest] of [tr_gc] *)
Definition lowest (l : list (N * N)) (thr : N) : N :=
  match l with [] => thr | p :: r => fold_left (fun lo q => N.min lo (fst q)) r (fst p) end.

Lemma fold_min_le (r : list (N * N)) : forall a x, In x (a :: map fst r) -> fold_left (fun lo q => N.min lo (fst q)) r a <= x.
Proof.
  induction r as [|q r IH]; intros a x H; cbn [fold_left]; [destruct H as [<-|[]]; reflexivity|].
  destruct H as [<-|[<-|H]]; [| |apply IH; now right].
  - exact (N.le_trans _ _ _ (IH _ _ (or_introl eq_refl)) (N.le_min_l _ _)).
  - exact (N.le_trans _ _ _ (IH _ _ (or_introl eq_refl)) (N.le_min_r _ _)).
Qed.

Lemma lowest_le l thr x : In x (map fst l) -> lowest l thr <= x.
Proof. destruct l as [|p r]; [intros []|apply fold_min_le]. Qed.

Lemma inv_gc t live : Inv t live -> Inv (tr_gc t) live.
Proof.
  intros I. pose proof I as [ND CT RV WL WV]. unfold tr_gc. set (p := fun q : N * N => _).
  fold (lowest (filter p (tdata t)) (visible t)).
  assert (Hp : forall k c, 0 < c -> p (k, c) = true) by (intros k c H; apply N.ltb_lt in H; unfold p; cbn; now rewrite H).
  assert (RV' : forall k c, In (k, c) (filter p (tdata t)) -> k <= visible t)
    by (intros k c H; apply filter_In in H; exact (RV k c (proj1 H))).
  constructor; cbn [tdata visible lowest_freed].
  - apply nodup_filter, ND.
  - intros i. now rewrite trow_filter.
  - exact RV'.
  - intros i Hi. apply N.max_lub; [exact (WL i Hi)|]. apply N.sub_le_mono_r, lowest_le.
    destruct (live_row t live i I Hi) as [P R]. apply (in_map fst _ (i, trow i (tdata t))), filter_In. auto.
  - apply N.max_lub; [exact WV|]. apply N.sub_le_mono_r. destruct (filter p (tdata t)) as [|[k c] r]; [reflexivity|].
    exact (N.le_trans _ _ _ (lowest_le ((k, c) :: r) _ k (or_introl eq_refl)) (RV' k c (or_introl eq_refl))).
Qed.

(* no guard is needed: closing a nonce that is not live changes no count *)
Lemma inv_close t live i : Inv t live -> Inv (tr_close t i) (remove_one i live).
Proof.
  intros [ND CT RV WL WV].
  assert (I' : Inv {| visible := visible t; tdata := unbump i (tdata t); freed := freed t + 1;
                      lowest_freed := lowest_freed t |} (remove_one i live)).
  { constructor; cbn [tdata visible lowest_freed].
    - unfold keys_nodup. now rewrite keys_unbump.
    - intros j. now rewrite cnt_remove_one, trow_unbump, CT.
    - intros k c H. apply (in_map fst) in H. rewrite keys_unbump in H. exact (keys_le _ _ RV k H).
    - intros j H. exact (WL j (in_remove_one _ _ _ H)).
    - exact WV. }
  unfold tr_close. destruct (_ =? 0); [apply inv_gc|]; exact I'.
Qed.

Lemma inv_pullup t live : Inv t live -> Inv (tr_pullup t) live.
Proof.
  intros I. unfold tr_pullup. destruct (tdata t) eqn:D; [|exact I].
  destruct live as [|i l]; [apply inv_empty; reflexivity|].
  destruct (live_row t _ i I (or_introl eq_refl)) as [_ H]. rewrite D in H. destruct H.
Qed.

Lemma inv_step st o : Inv (fst st) (snd st) -> Inv (fst (tstep st o)) (snd (tstep st o)).
Proof.
  destruct st as [t live]. cbn [fst snd]. intros I. destruct o as [|i|i|s| |]; cbn [tstep].
  - exact (inv_clone t live (visible t) I (N.le_refl _) (inv_wm_vis _ _ I)).
  - destruct (existsb (N.eqb i) live) eqn:E; [|exact I]. apply existsb_in in E.
    exact (inv_clone t live i I (live_le_visible _ _ _ I E) (inv_wm_live _ _ I i E)).
  - destruct (existsb (N.eqb i) live); [apply inv_close|]; exact I.
  - apply inv_publish, I.
  - apply inv_gc, I.
  - apply inv_pullup, I.
Qed.

Theorem inv_run ops : forall st, Inv (fst st) (snd st) ->
  Inv (fst (fold_left tstep ops st)) (snd (fold_left tstep ops st)).
Proof. induction ops as [|o ops IH]; intros st H; cbn [fold_left]; [exact H|]. apply IH, inv_step, H. Qed.

Lemma wm_mono_step st o : Inv (fst st) (snd st) -> lowest_freed (fst st) <= lowest_freed (fst (tstep st o)).
Proof.
  destruct st as [t live]. intros [_ _ _ _ WV]. cbn [fst] in WV. destruct o as [|i|i|s| |]; cbn [tstep fst].
  - reflexivity.
  - destruct (existsb _ _); reflexivity.
  - destruct (existsb _ _); [|reflexivity]. unfold tr_close. cbn [fst]. destruct (_ =? 0); [apply N.le_max_l|reflexivity].
  - reflexivity.
  - apply N.le_max_l.
  - unfold tr_pullup. destruct (tdata t); [exact WV|reflexivity].
Qed.
