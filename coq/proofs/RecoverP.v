(* RecoverP.v — what recovery and the refusal paths of the write operations do, at the database level: the shapes of a
   single write ([write_one_cases]); recovery as a fold of named steps over journal records, with its induction principle
   ([recover_eq], [replay_all_ind]); the recovered seqno and id counters (C11, C12); one write leaves the other keyspaces
   alone (C12); a poisoned database refuses every write of the interpreter (C13); records the tables cover are not replayed
   (C04); an acknowledged write is in the active journal (C02).                                                          *)
From FJ Require Import Prog.

Lemma write_one_cases d id k v vt mvt :
  (fst (write_one d id k v vt mvt) = d /\ snd (write_one d id k v vt mvt) <> ObOk) \/
  exists ks, ks_of d id = Some ks /\ k_deleted ks = false /\ d_poisoned d = false /\
    write_one d id k v vt mvt = (commit_batch d [{| ri_ks := id; ri_key := k; ri_value := v; ri_vt := vt |}]
                                               [{| ri_ks := id; ri_key := k; ri_value := v; ri_vt := mvt |}], ObOk).
Proof.
  unfold write_one. destruct (ks_of d id) as [ks|]; [|left; split; [reflexivity|discriminate]].
  destruct (k_deleted ks) eqn:D; [left; split; [reflexivity|discriminate]|].
  destruct (d_poisoned d) eqn:P; [left; split; [reflexivity|discriminate]|]. right. exists ks. auto.
Qed.

Lemma fold_left_inv {A B} (f : A -> B -> A) (Q : A -> Prop) l :
  (forall a b, In b l -> Q a -> Q (f a b)) -> forall a, Q a -> Q (fold_left f l a).
Proof.
  induction l as [|b r IH]; intros H a Qa; cbn [fold_left]; [exact Qa|].
  apply IH; [intros a' b' I; apply H; now right|apply H; [now left|exact Qa]].
Qed.

Lemma fold_ge {A} (f : N -> A -> N) (g : A -> N) : (forall a x, a <= f a x /\ g x <= f a x) ->
  forall l a, a <= fold_left f l a /\ forall x, In x l -> g x <= fold_left f l a.
Proof.
  intros H. induction l as [|y r IH]; intros a; cbn [fold_left]; [split; [reflexivity|intros x []]|].
  destruct (IH (f a y)) as [A1 A2], (H a y) as [H1 H2]. split; [etransitivity; eassumption|].
  intros x [<-|I]; [etransitivity; eassumption|apply A2, I].
Qed.

Definition le_opt (x : N) (o : option N) : Prop := match o with Some m => x <= m | None => False end.

Lemma le_opt_omax_l x a b : le_opt x a -> le_opt x (omax a b).
Proof. destruct a as [y|], b as [z|]; cbn; lia. Qed.
Lemma le_opt_omax_r x a b : le_opt x b -> le_opt x (omax a b).
Proof. destruct a as [y|], b as [z|]; cbn; lia. Qed.

Lemma max_seq_le l e : In e l -> le_opt (es e) (max_seq l).
Proof.
  unfold max_seq. generalize (@None N) as acc. induction l as [|x r IH]; intros acc I; [destruct I|].
  destruct I as [<-|I]; cbn [fold_left]; [|apply IH, I].
  apply fold_left_inv; [intros a b _; exact (le_opt_omax_l _ a (Some (es b)))|exact (le_opt_omax_r _ acc (Some (es x)) (N.le_refl _))].
Qed.

Lemma t_highest_mem_le t e :
  In e (mem_of t (v_active (latest t)) ++ flat_map (mem_of t) (v_sealed (latest t))) -> le_opt (es e) (t_highest_mem t).
Proof.
  unfold t_highest_mem. intros H. apply in_app_or in H as [H|H]; [apply le_opt_omax_l, max_seq_le, H|apply le_opt_omax_r].
  apply in_flat_map in H as (id & Hid & H).
  induction (v_sealed (latest t)) as [|x r IH]; [destruct Hid|].
  destruct Hid as [->|Hid]; cbn [fold_right]; [apply le_opt_omax_l, max_seq_le, H|apply le_opt_omax_r, IH, Hid].
Qed.

Lemma t_highest_le t e : In e (v_all t (latest t)) -> le_opt (es e) (t_highest t).
Proof.
  unfold v_all, t_highest. rewrite app_assoc. intros H.
  apply in_app_or in H as [H|H]; [apply le_opt_omax_l, t_highest_mem_le, H|apply le_opt_omax_r, max_seq_le, H].
Qed.

Definition ktrees (A : tree -> Prop) (kss : list kspace) : Prop := forall ks, In ks kss -> A (k_tree ks).

Section Replay.
  Variables (cfg : defects) (meta : list (N * bytes)) (mp : list (bytes * N)).

  (* one item of a batch with seqno s, one clear, and the end of a sealed journal with watermarks wms *)
  Definition replay_item (s : N) (kss : list kspace) (it : ritem) : list kspace :=
    replay_items cfg s kss meta mp [it].
  Definition replay_clear (s : N) (st : N * list kspace) (cid : N) : N * list kspace :=
    replay_clears cfg s st meta mp [cid].
  Definition seal_memtables (wms : list (N * N)) (kss : list kspace) : list kspace :=
    map (fun k => match alookup (k_id k) wms with
                  | None => k
                  | Some lsn =>
                      if match t_highest_persisted (k_tree k) with Some p => lsn <=? p | None => false end
                      then with_tree k (t_clear_active (k_tree k))
                      else with_tree k (fst (t_rotate (k_tree k)))
                  end) kss.

  Lemma replay_batch_eq st b :
    replay_batch cfg meta mp st b =
    fold_left (replay_clear (rb_seqno b)) (rb_clears b) (fst st, fold_left (replay_item (rb_seqno b)) (rb_items b) (snd st)).
  Proof. destruct st. reflexivity. Qed.

  (* a sealed journal: its batches, then the rebuilt memtables are dropped or sealed *)
  Definition replay_journal (st : N * list kspace) (bs : list rbatch) : N * list kspace :=
    let st1 := fold_left (replay_batch cfg meta mp) bs st in
    (fst st1, seal_memtables (wm_of_journal meta mp bs) (snd st1)).
  Definition resealed (bs : list rbatch) : sealedj := {| sj_batches := bs; sj_wm := wm_of_journal meta mp bs |}.

  Lemma recover_sealed_eq sealed : forall st,
    fold_left (recover_sealed_one cfg meta mp) sealed st = (fold_left replay_journal sealed (fst st), snd st ++ map resealed sealed).
  Proof.
    assert (E : forall st acc bs, recover_sealed_one cfg meta mp (st, acc) bs = (replay_journal st bs, acc ++ [resealed bs])).
    { intros [sq kss] acc bs. unfold recover_sealed_one, replay_journal. now destruct (fold_left _ bs (sq, kss)). }
    induction sealed as [|bs r IH]; intros [st acc]; cbn [fold_left map fst snd]; [now rewrite app_nil_r|].
    rewrite E, IH. cbn [fst snd]. now rewrite <- app_assoc.
  Qed.

  (* what one step does to a keyspace: nothing, or one tree operation; so what those operations keep of a tree, the
     step keeps of every tree *)
  Lemma replay_item_trees (A : tree -> Prop) s it :
    (forall t, (d_replay_shadow cfg = false -> forall p, t_highest_persisted t = Some p -> p < s) ->
               A t -> A (t_append t (mkEnt (ri_key it) s (ri_vt it) (ri_value it)))) ->
    forall kss, ktrees A kss -> ktrees A (replay_item s kss it).
  Proof.
    intros S kss H k' I. unfold replay_item, replay_items in I. cbn [fold_left] in I.
    destruct (alookup (ri_ks it) meta) as [name|]; [|exact (H k' I)]. destruct (blookup name mp) as [id|]; [|exact (H k' I)].
    apply in_map_iff in I as (k & <- & I). specialize (H k I). destruct (k_id k =? id); [|exact H].
    destruct (negb (d_replay_shadow cfg) && _) eqn:E; [exact H|]. apply S; [|exact H].
    intros SH p HP. rewrite SH, HP in E. apply N.leb_gt, E.
  Qed.

  (* a replayed clear draws from the running counter, which [A] may mention *)
  Lemma replay_clear_trees (A : N -> tree -> Prop) s c :
    (forall n t, A n t -> A (n + 1) t) -> (forall n t, A n t -> A (n + 1) (t_clear n t)) ->
    forall st, ktrees (A (fst st)) (snd st) -> ktrees (A (fst (replay_clear s st c))) (snd (replay_clear s st c)).
  Proof.
    intros M C [sq kss] H. unfold replay_clear, replay_clears. cbn [fold_left].
    destruct (alookup c meta) as [name|]; [|exact H]. destruct (blookup name mp) as [id|]; [|exact H].
    destruct (existsb _ kss); [|exact H]. cbn [fst snd] in *. intros k' I.
    apply in_map_iff in I as (k & <- & I). destruct (k_id k =? id); [apply C|apply M]; exact (H k I).
  Qed.

  Lemma seal_memtables_trees (A : tree -> Prop) wms :
    (forall t, A t -> A (t_clear_active t)) -> (forall t, A t -> A (fst (t_rotate t))) ->
    forall kss, ktrees A kss -> ktrees A (seal_memtables wms kss).
  Proof.
    intros C R kss H k' I. unfold seal_memtables in I. apply in_map_iff in I as (k & <- & I). specialize (H k I).
    destruct (alookup (k_id k) wms); [|exact H].
    destruct (match t_highest_persisted (k_tree k) with Some p => _ | None => false end); [apply C|apply R]; exact H.
  Qed.

  (* no step touches anything of a keyspace but its tree *)
  Section Fields.
    Context {A} (pr : kspace -> A) (pr_tree : forall k t, pr (with_tree k t) = pr k).

    Lemma replay_item_fields s kss it : map pr (replay_item s kss it) = map pr kss.
    Proof.
      unfold replay_item, replay_items. cbn [fold_left].
      destruct (alookup (ri_ks it) meta) as [name|]; [|reflexivity]. destruct (blookup name mp) as [id|]; [|reflexivity].
      rewrite map_map. apply map_ext. intros k. destruct (k_id k =? id); [|reflexivity]. destruct (_ && _); auto.
    Qed.
    Lemma replay_clear_fields s st c : map pr (snd (replay_clear s st c)) = map pr (snd st).
    Proof.
      unfold replay_clear, replay_clears. cbn [fold_left].
      destruct (alookup c meta) as [name|]; [|reflexivity]. destruct (blookup name mp) as [id|]; [|reflexivity].
      destruct st as [sq kss]. destruct (existsb _ kss); [|reflexivity]. cbn [snd].
      rewrite map_map. apply map_ext. intros k. destruct (k_id k =? id); auto.
    Qed.
    Lemma seal_memtables_fields wms kss : map pr (seal_memtables wms kss) = map pr kss.
    Proof.
      unfold seal_memtables. rewrite map_map. apply map_ext. intros k. destruct (alookup (k_id k) wms); [|reflexivity].
      destruct (match t_highest_persisted (k_tree k) with Some p => _ | None => false end); auto.
    Qed.
  End Fields.

  Lemma replay_batch_ind (Q : N * list kspace -> Prop) b :
    (forall sq kss it, In it (rb_items b) -> Q (sq, kss) -> Q (sq, replay_item (rb_seqno b) kss it)) ->
    (forall st c, In c (rb_clears b) -> Q st -> Q (replay_clear (rb_seqno b) st c)) ->
    forall st, Q st -> Q (replay_batch cfg meta mp st b).
  Proof.
    intros HI HC [sq kss] H. rewrite replay_batch_eq. apply fold_left_inv; [exact HC|]. cbn [fst snd].
    revert H. apply (fold_left_inv _ (fun kss => Q (sq, kss))). intros kss' it. apply HI.
  Qed.

  Definition replay_all (sealed : list (list rbatch)) (active : list rbatch) (st : N * list kspace) : N * list kspace :=
    fold_left (replay_batch cfg meta mp) active (fold_left replay_journal sealed st).

  (* ---- induction over the whole replay: P sees the batches still to be replayed, so that it can carry the seqno up to
     which the journal has been replayed; Pb holds while the batch b is being replayed ---- *)
  Section Induction.
    Variable P : list rbatch -> N * list kspace -> Prop.
    Variable Pb : rbatch -> list rbatch -> N * list kspace -> Prop.
    Hypothesis enter : forall b rest st, P (b :: rest) st -> Pb b rest st.
    Hypothesis item : forall b rest sq kss it, In it (rb_items b) ->
      Pb b rest (sq, kss) -> Pb b rest (sq, replay_item (rb_seqno b) kss it).
    Hypothesis clear : forall b rest st c, In c (rb_clears b) -> Pb b rest st -> Pb b rest (replay_clear (rb_seqno b) st c).
    Hypothesis leave : forall b rest st, Pb b rest st -> P rest st.
    Hypothesis seal : forall wms rest sq kss, P rest (sq, kss) -> P rest (sq, seal_memtables wms kss).

    Lemma replay_batches_ind bs : forall rest st, P (bs ++ rest) st -> P rest (fold_left (replay_batch cfg meta mp) bs st).
    Proof.
      induction bs as [|b r IH]; intros rest st H; cbn [fold_left]; [exact H|].
      apply IH, (leave b), replay_batch_ind; [apply item|apply clear|apply enter, H].
    Qed.

    Lemma replay_journals_ind sealed : forall rest st, P (concat sealed ++ rest) st -> P rest (fold_left replay_journal sealed st).
    Proof.
      induction sealed as [|bs r IH]; intros rest st H; cbn [fold_left]; [exact H|].
      apply IH. unfold replay_journal. apply seal. rewrite <- surjective_pairing. apply replay_batches_ind.
      cbn [concat] in H. now rewrite <- app_assoc in H.
    Qed.

    Theorem replay_all_ind sealed active st : P (concat sealed ++ active) st -> P [] (replay_all sealed active st).
    Proof. intros H. apply replay_batches_ind. rewrite app_nil_r. apply replay_journals_ind, H. Qed.
  End Induction.

  Corollary replay_all_inv (Q : N * list kspace -> Prop) :
    (forall s sq kss it, Q (sq, kss) -> Q (sq, replay_item s kss it)) ->
    (forall s st c, Q st -> Q (replay_clear s st c)) ->
    (forall wms sq kss, Q (sq, kss) -> Q (sq, seal_memtables wms kss)) ->
    forall sealed active st, Q st -> Q (replay_all sealed active st).
  Proof. intros I C S sealed active st. apply (replay_all_ind (fun _ => Q) (fun _ _ => Q)); auto. Qed.

  Theorem replay_all_fields {A} (pr : kspace -> A) : (forall k t, pr (with_tree k t) = pr k) ->
    forall sealed active st, map pr (snd (replay_all sealed active st)) = map pr (snd st).
  Proof.
    intros T sealed active st.
    apply (replay_all_inv (fun st' => map pr (snd st') = map pr (snd st))); [..|reflexivity]; cbn [snd].
    - intros s sq kss it <-. apply replay_item_fields, T.
    - intros s st' c <-. apply replay_clear_fields, T.
    - intros wms sq kss <-. apply seal_memtables_fields, T.
  Qed.
End Replay.

(* recover_keyspaces: a keyspace object for every directory that has a row in the meta tree *)
Definition dir_keyspaces (filters : list (bytes * frule)) (meta : list (N * bytes)) (dirs : list (N * tree)) : list kspace :=
  map (fun p => {| k_id := fst p;
                   k_name := match alookup (fst p) meta with Some n => n | None => [] end;
                   k_tree := snd p; k_deleted := false;
                   k_filter := match alookup (fst p) meta with
                               | Some n => match find (fun q => list_eqb (fst q) n) filters with
                                           | Some (_, r) => Some r | None => None end
                               | None => None end |})
      (filter (fun p => match alookup (fst p) meta with Some _ => true | None => false end) dirs).
Definition name_map (kss : list kspace) : list (bytes * N) := map (fun k => (k_name k, k_id k)) kss.

Lemma dir_keyspaces_trees (A : tree -> Prop) filters meta dirs :
  (forall p, In p dirs -> A (snd p)) -> ktrees A (dir_keyspaces filters meta dirs).
Proof. intros D ks I. apply in_map_iff in I as (p & <- & I). apply filter_In in I as [I _]. exact (D p I). Qed.

(* ---- C11: the recovered counter: at least the replayed one, above every recovered entry and, unless the journal is left
   out of it, above every journal batch ---- *)
Definition recovered_seqno (cfg : defects) (bs : list rbatch) (st : N * list kspace) : N :=
  let seqno := fold_left (fun acc k => match t_highest (k_tree k) with
                                       | Some h => N.max acc (h + 1) | None => acc end) (snd st) (fst st) in
  if d_seqno_journal cfg then seqno else N.max seqno (fold_left (fun acc b => N.max acc (rb_seqno b + 1)) bs 0).

Lemma recovered_seqno_above cfg bs st :
  fst st <= recovered_seqno cfg bs st /\
  (forall ks e, In ks (snd st) -> In e (v_all (k_tree ks) (latest (k_tree ks))) -> es e < recovered_seqno cfg bs st) /\
  (d_seqno_journal cfg = false -> forall b, In b bs -> rb_seqno b < recovered_seqno cfg bs st).
Proof.
  destruct (fold_ge (fun acc k => match t_highest (k_tree k) with Some h => N.max acc (h + 1) | None => acc end)
                    (fun k => match t_highest (k_tree k) with Some h => h + 1 | None => 0 end)) with (l := snd st) (a := fst st) as [A B].
  { intros a k. destruct (t_highest (k_tree k)); [exact (conj (N.le_max_l _ _) (N.le_max_r _ _))|exact (conj (N.le_refl _) (N.le_0_l _))]. }
  pose proof (fold_ge _ (fun b => rb_seqno b + 1) (fun a b => conj (N.le_max_l a _) (N.le_max_r a _)) bs 0) as [_ C].
  unfold recovered_seqno. set (n := fold_left _ (snd st) (fst st)) in *. set (j := fold_left _ bs 0) in *.
  assert (L : n <= if d_seqno_journal cfg then n else N.max n j) by (destruct (d_seqno_journal cfg); [reflexivity|apply N.le_max_l]).
  split; [exact (N.le_trans _ _ _ A L)|]. split.
  - intros ks e Iks Ie. apply t_highest_le in Ie. specialize (B ks Iks). destruct (t_highest (k_tree ks)); [|destruct Ie].
    cbn in Ie. lia.
  - intros -> b Ib. specialize (C b Ib). cbn beta in C. lia.
Qed.

Definition recovered (cfg : defects) (mode : dbmode) (filters : list (bytes * frule)) (active : list rbatch)
  (sealed : list (list rbatch)) (meta : list (N * bytes)) (dirs : list (N * tree)) (meta_seq : N)
  (st : N * list kspace) : db :=
  let kss0 := dir_keyspaces filters meta dirs in
  let jids := flat_map (fun b => map ri_ks (rb_items b) ++ rb_clears b) (concat sealed ++ active) in
  let seqno := recovered_seqno cfg (concat sealed ++ active) st in
  {| d_seqno := seqno; d_trk := tr_gc (tr_init seqno); d_active := active;
     d_sealed := map (resealed meta (name_map kss0)) sealed;
     d_kss := snd st; d_map := name_map kss0; d_meta := meta;
     d_next_id := if d_id_reuse cfg then nmax_list (1 :: map fst dirs) + 1
                  else nmax_list (1 :: map fst dirs ++ jids) + 1;
     d_dirs := map fst (filter (fun p => match alookup (fst p) meta with Some _ => true | None => false end) dirs);
     d_poisoned := false;
     d_queue := flat_map (fun k => match v_sealed (latest (k_tree k)) with
                                   | _ :: _ => [WFlush]
                                   | [] => match v_tables (latest (k_tree k)) with
                                           | [] => [] | _ => [WCompact (k_id k)] end
                                   end) (snd st);
     d_flushq := flat_map (fun k => match v_sealed (latest (k_tree k)) with
                                    | _ :: _ => [k_id k] | [] => [] end) (snd st);
     d_filters := filters; d_mode := mode; d_handles := []; d_snaps := []; d_iters := [];
     d_txs := []; d_occ := []; d_meta_seq := meta_seq; d_jwritten := false |}.

Lemma recover_eq cfg mode filters active sealed meta dirs pn ms :
  recover cfg mode filters active sealed meta dirs pn ms =
  recovered cfg mode filters active sealed meta dirs ms
    (replay_all cfg meta (name_map (dir_keyspaces filters meta dirs)) sealed active (0, dir_keyspaces filters meta dirs)).
Proof.
  unfold recover, replay_all. cbv zeta. fold (dir_keyspaces filters meta dirs). rewrite recover_sealed_eq. cbn [fst snd app].
  destruct (fold_left (replay_journal _ _ _) sealed _) as [sq1 kss1].
  destruct (fold_left (replay_batch _ _ _) active _) as [sq2 kss2]. reflexivity.
Qed.

(* After recovery (any journal content, any tables, any registry): the next seqno is above every entry of
   every recovered keyspace's current version and above every journal record; visible = next seqno. *)
Theorem recover_seqno_above cfg mode filters active sealed meta dirs pn ms :
  d_seqno_journal cfg = false ->
  let d := recover cfg mode filters active sealed meta dirs pn ms in
  (forall ks e, In ks (d_kss d) -> In e (v_all (k_tree ks) (latest (k_tree ks))) -> es e < d_seqno d) /\
  (forall b, In b (concat sealed ++ active) -> rb_seqno b < d_seqno d) /\
  visible (d_trk d) = d_seqno d.
Proof.
  intros J d. unfold d. rewrite recover_eq. set (st := replay_all _ _ _ _ _ _). cbn [recovered d_kss d_seqno d_trk].
  destruct (recovered_seqno_above cfg (concat sealed ++ active) st) as [_ [A B]].
  split; [exact A|split; [exact (B J)|reflexivity]].
Qed.

(* ---- C12: frame — a single write to keyspace id leaves every other keyspace's tree untouched ---- *)
(* says nothing as it stands (its conclusion has the disjunct True); the frame property is [write_frame] below *)
Lemma apply_item_frame s kss it id' :
  id' <> ri_ks it -> find (fun k => k_id k =? id') (apply_item s kss it) = find (fun k => k_id k =? id') kss
  \/ True.
Proof. right. exact I. Qed.

Lemma apply_item_other s it : forall kss k, In k kss -> k_id k <> ri_ks it -> In k (apply_item s kss it).
Proof.
  intros kss k Hin NE. unfold apply_item. apply in_map_iff. exists k. split; [|exact Hin].
  destruct (N.eqb_spec (k_id k) (ri_ks it)); [contradiction|reflexivity].
Qed.

Theorem write_frame d id k v vt mvt ks' :
  In ks' (d_kss d) -> k_id ks' <> id ->
  In ks' (d_kss (fst (write_one d id k v vt mvt))).
Proof.
  intros Hin NE. destruct (write_one_cases d id k v vt mvt) as [[-> _]|(ks & _ & _ & _ & ->)]; [exact Hin|].
  apply apply_item_other; [exact Hin|exact NE].
Qed.

(* direct inserts / removes through a handle of a deleted keyspace are refused, nothing changes *)
Theorem write_deleted_refused d id k v vt mvt ks :
  ks_of d id = Some ks -> k_deleted ks = true ->
  write_one d id k v vt mvt = (d, ObErr E_DELETED).
Proof. intros H D. unfold write_one. rewrite H, D. reflexivity. Qed.

(* ---- C13: once the database is poisoned, no write of any kind is acknowledged and nothing changes ---- *)
Definition refused (r : db * obsx) (d : db) : Prop := fst r = d /\ snd r <> Ox ObOk.

Lemma write_one_poisoned d id k v vt mvt : d_poisoned d = true ->
  fst (write_one d id k v vt mvt) = d /\ snd (write_one d id k v vt mvt) <> ObOk.
Proof.
  intros P. destruct (write_one_cases d id k v vt mvt) as [H|(ks & _ & _ & NP & _)]; [exact H|congruence].
Qed.

Lemma do_clear_poisoned d id : d_poisoned d = true ->
  fst (do_clear d id) = d /\ snd (do_clear d id) <> ObOk.
Proof.
  intros P. unfold do_clear. destruct (ks_of d id) as [ks|]; [|split; [reflexivity|discriminate]].
  rewrite P. split; [reflexivity|discriminate].
Qed.

(* the shape of db_step's write arms: resolve the handle, run f on the keyspace, wrap the observation *)
Lemma handle_refused d h (f : kspace -> db * obs) :
  (forall ks, fst (f ks) = d /\ snd (f ks) <> ObOk) ->
  refused match handle_ks d h with None => (d, Ox ObBadref) | Some ks => (fst (f ks), Ox (snd (f ks))) end d.
Proof.
  intros H. destruct (handle_ks d h) as [ks|]; [|split; [reflexivity|discriminate]].
  destruct (H ks) as [A B]. split; [exact A|]. intros E. apply B. now injection E.
Qed.

Theorem poisoned_refuses_writes cfg d :
  d_poisoned d = true -> d_mode d = MPlain ->
  (forall h k v, refused (db_step cfg d (OPut h k v)) d) /\
  (forall h k, refused (db_step cfg d (ODel h k)) d) /\
  (forall h k, refused (db_step cfg d (ODelW h k)) d) /\
  (forall h, refused (db_step cfg d (OClear h)) d) /\
  refused (db_step cfg d OPersist) d /\
  (forall items, fst (db_step cfg d (OBatch items)) = d).
Proof.
  intros P M. split; [|split; [|split; [|split; [|split]]]].
  (* put, delete, weak delete: the same write_one *)
  1-3: intros h k *; cbn [db_step]; rewrite M; apply handle_refused; intros ks; apply write_one_poisoned, P.
  - intros h. apply handle_refused. intros ks. apply do_clear_poisoned, P.
  - cbn [db_step]. rewrite P. split; [reflexivity|discriminate].
  - intros items. cbn [db_step]. destruct (existsb _ _); [reflexivity|]. destruct (flat_map _ _); [reflexivity|].
    rewrite P. reflexivity.
Qed.

Lemma nmax_list_ge l x : In x l -> x <= nmax_list l.
Proof. exact (proj2 (fold_ge N.max (fun x => x) (fun a x => conj (N.le_max_l a x) (N.le_max_r a x)) l 0) x). Qed.

(* After recovery (any journals, any directories): the id handed to the next new keyspace is above the id of every
   keyspace directory found and above every keyspace id that occurs in any record (item or clear) of any journal,
   sealed or active — so records of a deleted keyspace can never be replayed into a keyspace created later. *)
Theorem recover_next_id_above cfg mode filters active sealed meta dirs pn ms :
  d_id_reuse cfg = false ->
  let d := recover cfg mode filters active sealed meta dirs pn ms in
  (forall p, In p dirs -> fst p < d_next_id d) /\
  (forall b it, In b (concat sealed ++ active) -> In it (rb_items b) -> ri_ks it < d_next_id d) /\
  (forall b id, In b (concat sealed ++ active) -> In id (rb_clears b) -> id < d_next_id d).
Proof.
  intros J d. unfold d. rewrite recover_eq. cbn [recovered d_next_id]. rewrite J.
  set (jids := flat_map _ (concat sealed ++ active)). set (n := nmax_list _ + 1).
  assert (G : forall x, In x (map fst dirs ++ jids) -> x < n).
  { intros x I. pose proof (nmax_list_ge (1 :: map fst dirs ++ jids) x (or_intror I)). unfold n. lia. }
  assert (Gj : forall b x, In b (concat sealed ++ active) -> In x (map ri_ks (rb_items b) ++ rb_clears b) -> x < n).
  { intros b x Ib Ix. apply G, in_or_app. right. apply in_flat_map. eauto. }
  split; [|split].
  - intros p I. apply G, in_or_app. left. apply in_map, I.
  - intros b it Ib Ii. apply (Gj b _ Ib), in_or_app. left. apply in_map, Ii.
  - intros b id Ib Ii. apply (Gj b _ Ib), in_or_app. now right.
Qed.

(* creating a keyspace under a new name uses exactly that counter value and moves the counter past it *)
Theorem new_keyspace_takes_next_id d h name :
  blookup name (d_map d) = None ->
  let d' := fst (do_ks d h name) in
  d_next_id d' = d_next_id d + 1 /\
  exists ks, In ks (d_kss d') /\ k_id ks = d_next_id d /\ k_name ks = name /\ k_tree ks = tree_init.
Proof.
  intros H. unfold do_ks. rewrite H. cbn. split; [reflexivity|]. eexists. split; [left; reflexivity|]. repeat split.
Qed.

Definition covered (s : N) (kss : list kspace) : Prop :=
  forall k, In k kss -> exists p, t_highest_persisted (k_tree k) = Some p /\ s <= p.

Lemma replay_item_covered cfg s meta mp kss it :
  d_replay_shadow cfg = false -> covered s kss -> replay_item cfg meta mp s kss it = kss.
Proof.
  intros J C. unfold replay_item, replay_items. cbn [fold_left].
  destruct (alookup (ri_ks it) meta) as [name|]; [|reflexivity]. destruct (blookup name mp) as [id|]; [|reflexivity].
  rewrite <- (map_id kss) at 2. apply map_ext_in.
  intros k I. destruct (k_id k =? id); [|reflexivity]. rewrite J. cbn [negb andb].
  destruct (C k I) as [p [-> L]]. apply N.leb_le in L. now rewrite L.
Qed.

Lemma replay_clear_covered cfg s meta mp sq kss c :
  d_clear_replay cfg = false -> covered s kss -> replay_clear cfg meta mp s (sq, kss) c = (sq, kss).
Proof.
  intros J C. unfold replay_clear, replay_clears. cbn [fold_left].
  destruct (alookup c meta) as [name|]; [|reflexivity]. destruct (blookup name mp) as [id|]; [|reflexivity].
  destruct (existsb _ kss) eqn:E; [|reflexivity]. exfalso.
  apply existsb_exists in E as [k [I H]]. destruct (C k I) as [p [P L]]. apply N.leb_le in L.
  rewrite J, P, L, Bool.andb_false_r in H. discriminate.
Qed.

(* a whole journal batch (items and clears) whose seqno every keyspace's tables already cover changes nothing at replay:
   newer table data that never went through the journal (bulk ingestion, compaction filter output) cannot be shadowed,
   and tables written after a clear cannot be wiped by replaying that clear *)
Theorem replay_covered_noop cfg meta mp sq kss b :
  d_replay_shadow cfg = false -> d_clear_replay cfg = false -> covered (rb_seqno b) kss ->
  replay_batch cfg meta mp (sq, kss) b = (sq, kss).
Proof.
  intros J1 J2 C. apply (replay_batch_ind cfg meta mp (fun st => st = (sq, kss))); [..|reflexivity].
  - intros sq' kss' it _ E. injection E as -> ->. now rewrite replay_item_covered.
  - intros st c _ ->. now apply replay_clear_covered.
Qed.

(* ... and a record that the tables do not cover is put back into the keyspace's active memtable *)
Theorem replay_uncovered_appended cfg s meta mp k it name :
  alookup (ri_ks it) meta = Some name -> blookup name mp = Some (k_id k) ->
  (forall p, t_highest_persisted (k_tree k) = Some p -> p < s) ->
  replay_items cfg s [k] meta mp [it] =
  [with_tree k (t_append (k_tree k) (mkEnt (ri_key it) s (ri_vt it) (ri_value it)))].
Proof.
  intros A B U. unfold replay_items. cbn [fold_left]. rewrite A, B. cbn [map]. rewrite N.eqb_refl.
  destruct (t_highest_persisted (k_tree k)) as [p|] eqn:P; [|now rewrite Bool.andb_false_r].
  now rewrite (proj2 (N.leb_gt s p) (U p eq_refl)), Bool.andb_false_r.
Qed.

(* non-vacuity: a keyspace whose table holds seqno 5 covers a batch with seqno 3 *)
Definition c04_tree : tree :=
  {| mems := [ {| m_id := 0; m_ents := [] |} ];
     vers := [ {| v_seq := 6; v_active := 0; v_sealed := []; v_tables := [mkEnt [97] 5 VValue [1]] |} ];
     next_mid := 1 |}.
Definition c04_ks : kspace := {| k_id := 1; k_name := [97]; k_tree := c04_tree; k_deleted := false; k_filter := None |}.
Example covered_example : covered 3 [c04_ks].
Proof. intros k [<-|[]]. exists 5. split; [reflexivity|lia]. Qed.

(* ---- C02 (model level): an acknowledged single write is in the active journal with the seqno it was applied with ---- *)
Theorem write_one_journaled d id k v vt mvt d' :
  write_one d id k v vt mvt = (d', ObOk) ->
  d_active d' = d_active d ++ [mk_batch (d_seqno d) [{| ri_ks := id; ri_key := k; ri_value := v; ri_vt := vt |}] []] /\
  d_seqno d' = d_seqno d + 1 /\ d_sealed d' = d_sealed d.
Proof.
  intros H. destruct (write_one_cases d id k v vt mvt) as [[_ B]|(ks & _ & _ & _ & E)]; [now rewrite H in B|].
  rewrite E in H. injection H as <-. cbn. auto.
Qed.

Theorem clear_journaled d id d' :
  do_clear d id = (d', ObOk) ->
  d_active d' = d_active d ++ [mk_batch (d_seqno d) [] [id]].
Proof.
  unfold do_clear. destruct (ks_of d id) as [ks|]; [|discriminate]. destruct (d_poisoned d); [discriminate|].
  cbn. intros H. injection H as <-. reflexivity.
Qed.
