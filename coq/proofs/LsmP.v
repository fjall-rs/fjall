(* LsmP.v — C05: snapshot reads at an instant I are frozen under every tree operation whose new sequence numbers are >= I and
   whose GC watermark is <= I.  [look mo vs k I] is what a reader of k at I gets from a list of versions vs over a memtable
   heap mo, and [reads t] is [look (mem_of t) (vers t)]: each operation is then a change of the list (a version pushed,
   versions dropped, the latest replaced in place) or of the heap (an append, a fresh memtable) that [look] does not see. *)
From FJ Require Import Lsm MapP.

Lemma newest_vis k I l : newest k I l = newest k I (vis I l).
Proof. symmetry. apply newest_filter. intros x _ _ L. apply N.ltb_lt, L. Qed.

Lemma vis_idem I l : vis I (vis I l) = vis I l.
Proof.
  unfold vis. induction l as [|e r IH]; cbn; [reflexivity|].
  destruct (es e <? I) eqn:E; cbn; [rewrite E; f_equal|]; exact IH.
Qed.
Lemma vis_app I a b : vis I (a ++ b) = vis I a ++ vis I b.
Proof. apply filter_app. Qed.

Lemma vis_flat_map {A} I (f : A -> list ent) l : vis I (flat_map f l) = flat_map (fun x => vis I (f x)) l.
Proof. induction l as [|x r IH]; cbn [flat_map]; [reflexivity|]. now rewrite vis_app, IH. Qed.

Lemma scan_vis l1 l2 I : vis I l1 = vis I l2 -> scan_ents l1 I = scan_ents l2 I.
Proof. intros H. unfold scan_ents. now rewrite H. Qed.
Lemma newest_vis_eq k I l1 l2 : vis I l1 = vis I l2 -> newest k I l1 = newest k I l2.
Proof. intros H. rewrite (newest_vis k I l1), (newest_vis k I l2). now rewrite H. Qed.

Lemma vis_mem_insert I e l : I <= es e -> vis I (mem_insert e l) = vis I l.
Proof.
  intros H. apply N.ltb_ge in H.   (* H : (es e <? I) = false *)
  unfold vis, mem_insert. cbn [filter]. rewrite H.
  induction l as [|x r IH]; cbn [filter]; [reflexivity|].
  destruct (same_slot e x) eqn:S; cbn [negb filter]; [|now rewrite IH].
  apply andb_true_iff in S as [_ S]. apply N.eqb_eq in S. rewrite <- S, H. exact IH.
Qed.

Lemma vis_zero l : vis 0 l = [].
Proof. unfold vis. induction l as [|e r IH]; cbn; [reflexivity|]. destruct (N.ltb_spec (es e) 0) as [L|_]; [destruct (N.nlt_0_r _ L)|exact IH]. Qed.

Lemma newest_zero k l : newest k 0 l = None.
Proof. rewrite newest_vis, vis_zero. reflexivity. Qed.

Definition wf_tree (t : tree) : Prop :=
  vers t <> [] /\ (forall m, In m (mems t) -> m_id m < next_mid t).

Lemma mem_of_fresh t l vs nm id : id < next_mid t ->
  mem_of {| mems := {| m_id := next_mid t; m_ents := l |} :: mems t; vers := vs; next_mid := nm |} id = mem_of t id.
Proof. intros H. unfold mem_of. cbn [mems find m_id]. destruct (N.eqb_spec (next_mid t) id); [lia|reflexivity]. Qed.

Lemma mem_of_new id l ms vs nm : mem_of {| mems := {| m_id := id; m_ents := l |} :: ms; vers := vs; next_mid := nm |} id = l.
Proof. unfold mem_of. cbn [mems find m_id]. now rewrite N.eqb_refl. Qed.

Lemma mem_of_cons_fresh t l id : wf_tree t -> id < next_mid t ->
  mem_of {| mems := {| m_id := next_mid t; m_ents := l |} :: mems t; vers := vers t; next_mid := next_mid t + 1 |} id
  = mem_of t id.
Proof. intros _. apply mem_of_fresh. Qed.

Definition ver_reads (mo : N -> list ent) (v : version) (k : bytes) (I : N) : option ent * list (bytes * bytes) :=
  (first_some (newest k I (mo (v_active v)) :: map (fun id => newest k I (mo id)) (v_sealed v) ++ [newest k I (v_tables v)]),
   scan_ents (mo (v_active v) ++ flat_map mo (v_sealed v) ++ v_tables v) I).

Lemma v_reads_eq t v k I : (v_get_ent t v k I, scan_ents (v_all t v) I) = ver_reads (mem_of t) v k I.
Proof. reflexivity. Qed.

Lemma ver_reads_ext mo1 mo2 v k I :
  (forall id, In id (v_active v :: v_sealed v) -> vis I (mo1 id) = vis I (mo2 id)) ->
  ver_reads mo1 v k I = ver_reads mo2 v k I.
Proof.
  intros H. pose proof (fun id Hid => H id (or_intror Hid)) as HS. specialize (H _ (or_introl eq_refl)).
  unfold ver_reads.
  rewrite (newest_vis_eq k I _ _ H), (map_ext_in _ _ _ (fun id Hid => newest_vis_eq k I _ _ (HS id Hid))).
  apply f_equal, scan_vis. rewrite !vis_app, !vis_flat_map, !flat_map_concat_map, H, (map_ext_in _ _ _ HS). reflexivity.
Qed.

Lemma ver_reads_zero mo v k : ver_reads mo v k 0 = (None, []).
Proof.
  unfold ver_reads, scan_ents. rewrite vis_zero, !newest_zero. apply f_equal2; [|reflexivity]. cbn [first_some fold_right].
  induction (v_sealed v) as [|id r IH]; cbn [map app fold_right]; [reflexivity|rewrite newest_zero; exact IH].
Qed.

Lemma ver_reads_rotated mo s nid v k I : mo nid = [] ->
  ver_reads mo {| v_seq := s; v_active := nid; v_sealed := v_active v :: v_sealed v; v_tables := v_tables v |} k I
  = ver_reads mo v k I.
Proof. intros E. unfold ver_reads. cbn [v_active v_sealed v_tables map flat_map]. rewrite E, <- app_assoc. reflexivity. Qed.

Definition reads (t : tree) (k : bytes) (I : N) := (t_get t k I, t_scan t I).

(* what a reader of k at I gets from a version list over a memtable heap: SuperVersions::get_version_for_snapshot, then
   the point read and the scan of the version found.  Instant 0 selects the oldest version and sees nothing in it. *)
Definition look (mo : N -> list ent) (vs : list version) (k : bytes) (I : N) : option (option bytes) * option (list (bytes * bytes)) :=
  if I =? 0 then (Some None, Some [])
  else match find (fun v => v_seq v <? I) vs with
       | Some v => (Some (value_of (fst (ver_reads mo v k I))), Some (snd (ver_reads mo v k I)))
       | None => (None, None)
       end.

Lemma reads_look t k I : reads t k I = look (mem_of t) (vers t) k I.
Proof.
  unfold reads, t_get, t_scan, select_version, look. destruct (I =? 0) eqn:Z; [|destruct (find _ _); reflexivity].
  apply N.eqb_eq in Z as ->. pose proof (v_reads_eq t (last (vers t) dummy_version) k 0) as E.
  rewrite ver_reads_zero in E. injection E as -> ->. reflexivity.
Qed.

Lemma look_ext mo1 mo2 vs k I :
  (forall v, In v vs -> ver_reads mo1 v k I = ver_reads mo2 v k I) -> look mo1 vs k I = look mo2 vs k I.
Proof.
  intros H. unfold look. destruct (find _ vs) as [v|] eqn:F; [|reflexivity].
  apply find_some in F as [F _]. now rewrite (H v F).
Qed.

Lemma look_push mo v vs k I : I <= v_seq v -> look mo (v :: vs) k I = look mo vs k I.
Proof. intros H. apply N.ltb_ge in H. unfold look. cbn [find]. now rewrite H. Qed.

Lemma find_keep_from_first W I l : W <= I ->
  find (fun v => v_seq v <? I) (keep_from_first (fun v => v_seq v <? W) l) = find (fun v => v_seq v <? I) l.
Proof.
  intros H. induction l as [|v r IH]; cbn [keep_from_first find]; [reflexivity|].
  destruct (N.ltb_spec (v_seq v) W); cbn [find].
  - destruct (N.ltb_spec (v_seq v) I); [reflexivity|lia].
  - destruct (v_seq v <? I); [reflexivity|exact IH].
Qed.

Lemma look_keep W mo vs k I : W <= I -> look mo (keep_from_first (fun v => v_seq v <? W) vs) k I = look mo vs k I.
Proof. intros H. unfold look. now rewrite find_keep_from_first. Qed.

Lemma look_with_latest mo t v k I : vers t <> [] ->
  v_seq v = v_seq (latest t) -> ver_reads mo v k I = ver_reads mo (latest t) k I ->
  look mo (with_latest t v) k I = look mo (vers t) k I.
Proof.
  unfold with_latest, latest. destruct (vers t) as [|w r]; [congruence|]. cbn [hd]. intros _ S E.
  unfold look. cbn [find]. rewrite S. destruct (v_seq w <? I); [now rewrite E|reflexivity].
Qed.

(* set_mem keeps every memtable's id, so a lookup by id commutes with it *)
Lemma find_set_mem t a l id :
  find (fun m => m_id m =? id) (set_mem t a l)
  = option_map (fun m => if m_id m =? a then {| m_id := a; m_ents := l |} else m) (find (fun m => m_id m =? id) (mems t)).
Proof.
  unfold set_mem. induction (mems t) as [|x r IH]; cbn [map find]; [reflexivity|].
  replace (m_id (if m_id x =? a then _ else x)) with (m_id x) by (destruct (N.eqb_spec (m_id x) a); [assumption|reflexivity]).
  destruct (m_id x =? id); [reflexivity|exact IH].
Qed.

Lemma mem_of_append_other t e id : id <> v_active (latest t) -> mem_of (t_append t e) id = mem_of t id.
Proof.
  intros NE. unfold mem_of, t_append. cbn [mems]. rewrite find_set_mem.
  destruct (find _ (mems t)) as [m|] eqn:F; [|reflexivity]. apply find_some in F as [_ F]. apply N.eqb_eq in F as <-.
  cbn [option_map]. destruct (N.eqb_spec (m_id m) (v_active (latest t))); [contradiction|reflexivity].
Qed.

Lemma mem_of_append_active t e :
  mem_of (t_append t e) (v_active (latest t)) =
  match find (fun m => m_id m =? v_active (latest t)) (mems t) with
  | Some _ => mem_insert e (mem_of t (v_active (latest t)))
  | None => []
  end.
Proof.
  unfold mem_of at 1, t_append. cbn [mems]. rewrite find_set_mem.
  destruct (find _ (mems t)) as [m|] eqn:F; [|reflexivity]. apply find_some in F as [_ F]. cbn [option_map]. rewrite F. reflexivity.
Qed.

Lemma append_vis t e I id : I <= es e ->
  vis I (mem_of (t_append t e) id) = vis I (mem_of t id).
Proof.
  intros H. destruct (N.eq_dec id (v_active (latest t))) as [->|NE]; [|now rewrite mem_of_append_other].
  rewrite mem_of_append_active. unfold mem_of. destruct (find _ (mems t)); [apply vis_mem_insert, H|reflexivity].
Qed.

Definition ids_ok (t : tree) : Prop :=
  vers t <> [] /\
  forall v, In v (vers t) -> v_active v < next_mid t /\ forall id, In id (v_sealed v) -> id < next_mid t.

Lemma look_fresh t l vs nm k I : ids_ok t ->
  look (mem_of {| mems := {| m_id := next_mid t; m_ents := l |} :: mems t; vers := vs; next_mid := nm |}) (vers t) k I
  = look (mem_of t) (vers t) k I.
Proof.
  intros [_ IDS]. apply look_ext. intros v Hv. apply ver_reads_ext. intros id Hid. apply f_equal, mem_of_fresh.
  destruct (IDS v Hv) as [A S]. destruct Hid as [<-|Hid]; auto.
Qed.

Lemma keep_from_first_nonempty p (l : list version) : l <> [] -> keep_from_first p l <> [].
Proof. destruct l as [|v r]; [congruence|]. cbn. destruct (p v); discriminate. Qed.

Lemma maintenance_cases W t :
  vh_maintenance W t = t \/
  vh_maintenance W t = {| mems := mems t; vers := keep_from_first (fun v => v_seq v <? W) (vers t); next_mid := next_mid t |}.
Proof.
  unfold vh_maintenance. destruct (W =? 0); [now left|]. destruct (vers t) as [|? [|]]; [now left..|].
  destruct (existsb _ _); [now right|now left].
Qed.

Lemma latest_append t e : latest (t_append t e) = latest t.
Proof. reflexivity. Qed.

Lemma latest_maint W t : latest (vh_maintenance W t) = latest t.
Proof.
  destruct (maintenance_cases W t) as [->| ->]; [reflexivity|]. unfold latest. cbn [vers].
  destruct (vers t) as [|v r]; [reflexivity|]. cbn [keep_from_first]. destruct (v_seq v <? W); reflexivity.
Qed.
Lemma mems_maint W t : mems (vh_maintenance W t) = mems t.
Proof. destruct (maintenance_cases W t) as [->| ->]; reflexivity. Qed.

(* flush, compaction and ingestion push a version over the same memtable heap (flush and compaction then run version-history
   maintenance); rotation and clear_active replace the latest version in place: a fresh, empty active memtable; the old
   active memtable sealed in front of the others (rotation) or every memtable dropped (clear_active) *)
Definition push (t : tree) (v : version) : tree := {| mems := mems t; vers := v :: vers t; next_mid := next_mid t |}.
Definition renew (t : tree) (sealed : list N) : tree :=
  {| mems := {| m_id := next_mid t; m_ents := [] |} :: mems t;
     vers := with_latest t {| v_seq := v_seq (latest t); v_active := next_mid t; v_sealed := sealed; v_tables := v_tables (latest t) |};
     next_mid := next_mid t + 1 |}.

Lemma t_flush_cases W s t : fst (t_flush W s t) = t \/
  fst (t_flush W s t) = vh_maintenance W (push t {| v_seq := s; v_active := v_active (latest t); v_sealed := [];
    v_tables := gc_stream W false None (flat_map (mem_of t) (v_sealed (latest t))) ++ v_tables (latest t) |}).
Proof. unfold t_flush. destruct (v_sealed (latest t)); [now left|]. destruct (gc_stream _ _ _ _); [now left|now right]. Qed.

Lemma t_compact_cases W s ev f t : t_compact W s ev f t = t \/
  t_compact W s ev f t = vh_maintenance W (push t {| v_seq := s; v_active := v_active (latest t); v_sealed := v_sealed (latest t);
    v_tables := gc_stream W ev f (v_tables (latest t)) |}).
Proof. unfold t_compact. destruct (v_tables (latest t)); [now left|now right]. Qed.

Lemma t_rotate_renew t : fst (t_rotate t) = match mem_of t (v_active (latest t)) with [] => t | _ => renew t (v_active (latest t) :: v_sealed (latest t)) end.
Proof. unfold t_rotate. destruct (mem_of t _); reflexivity. Qed.
Lemma t_clear_active_renew t : t_clear_active t = match mem_of t (v_active (latest t)) with [] => t | _ => renew t [] end.
Proof. reflexivity. Qed.

Lemma latest_renew t sealed : latest (renew t sealed) = {| v_seq := v_seq (latest t); v_active := next_mid t; v_sealed := sealed; v_tables := v_tables (latest t) |}.
Proof. unfold latest at 1. unfold renew, with_latest. cbn [vers]. destruct (vers t); reflexivity. Qed.

Theorem append_frozen t e k I : I <= es e -> reads (t_append t e) k I = reads t k I.
Proof.
  intros H. rewrite !reads_look. apply look_ext. intros v _. apply ver_reads_ext. intros id _. apply append_vis, H.
Qed.

Theorem maintenance_frozen W t k I : W <= I ->
  reads (vh_maintenance W t) k I = reads t k I.
Proof.
  intros H. destruct (maintenance_cases W t) as [->| ->]; [reflexivity|].
  rewrite !reads_look. apply look_keep, H.
Qed.

Theorem push_frozen t v k I : I <= v_seq v -> reads (push t v) k I = reads t k I.
Proof. intros H. rewrite !reads_look. apply look_push, H. Qed.

Theorem flush_frozen W s t k I : W <= I -> I <= s ->
  reads (fst (t_flush W s t)) k I = reads t k I.
Proof.
  intros HW HS. destruct (t_flush_cases W s t) as [->| ->]; [reflexivity|].
  rewrite maintenance_frozen by exact HW. apply push_frozen, HS.
Qed.

Theorem compact_frozen W s ev f t k I : W <= I -> I <= s ->
  reads (t_compact W s ev f t) k I = reads t k I.
Proof.
  intros HW HS. destruct (t_compact_cases W s ev f t) as [->| ->]; [reflexivity|].
  rewrite maintenance_frozen by exact HW. apply push_frozen, HS.
Qed.

Theorem ingest_register_frozen g items t k I : I <= g ->
  reads (t_register_ingest g items t) k I = reads t k I.
Proof. intros H. apply push_frozen, H. Qed.

(* clear: the new version has a fresh empty memtable; older versions are untouched *)
Theorem clear_frozen s t k I : ids_ok t -> I <= s ->
  reads (t_clear s t) k I = reads t k I.
Proof.
  intros OK H. rewrite !reads_look. unfold t_clear. cbn [vers]. rewrite look_push by exact H. apply look_fresh, OK.
Qed.

(* rotation: the active memtable of the latest version becomes its newest sealed one, under a fresh empty one *)
Theorem rotate_frozen t k I : ids_ok t -> reads (fst (t_rotate t)) k I = reads t k I.
Proof.
  intros OK. rewrite t_rotate_renew. destruct (mem_of t (v_active (latest t))); [reflexivity|].
  rewrite !reads_look. unfold renew. cbn [vers].
  rewrite look_with_latest; [apply look_fresh, OK|apply OK|reflexivity|apply ver_reads_rotated, mem_of_new].
Qed.

Inductive tree_op :=
| TAppend (e : ent) | TRotate | TFlush (W s : N) | TCompact (W s : N) (evict : bool) (f : option frule)
| TClear (s : N) | TIngest (g : N) (items : list ent) | TMaint (W : N).

Definition apply_top (t : tree) (o : tree_op) : tree :=
  match o with
  | TAppend e => t_append t e
  | TRotate => fst (t_rotate t)
  | TFlush W s => fst (t_flush W s t)
  | TCompact W s ev f => t_compact W s ev f t
  | TClear s => t_clear s t
  | TIngest g items => t_register_ingest g items t
  | TMaint W => vh_maintenance W t
  end.

(* what fjall must guarantee about the parameters it passes, for a reader at instant I *)
Definition op_ok (I : N) (o : tree_op) : Prop :=
  match o with
  | TAppend e => I <= es e
  | TRotate => True
  | TFlush W s => W <= I /\ I <= s
  | TCompact W s _ _ => W <= I /\ I <= s
  | TClear s => I <= s
  | TIngest g _ => I <= g
  | TMaint W => W <= I
  end.

Lemma ids_ok_weaken vs nm t :
  vs <> [] -> next_mid t <= nm ->
  (forall v, In v vs -> v_active v < nm /\ forall id, In id (v_sealed v) -> id < nm) ->
  forall ms, ids_ok {| mems := ms; vers := vs; next_mid := nm |}.
Proof. intros NE _ H ms. split; [exact NE|exact H]. Qed.

Lemma keep_from_first_incl p (l : list version) v : In v (keep_from_first p l) -> In v l.
Proof.
  induction l as [|x r IH]; cbn; [auto|]. destruct (p x); cbn; [intros [->|[]]; auto|intros [->|H]; auto].
Qed.

Lemma ids_ok_maint W t : ids_ok t -> ids_ok (vh_maintenance W t).
Proof.
  intros OK. destruct (maintenance_cases W t) as [->| ->]; [exact OK|]. destruct OK as [NE IDS].
  split; cbn [vers next_mid]; [apply keep_from_first_nonempty, NE|].
  intros v Hv. eapply IDS, keep_from_first_incl, Hv.
Qed.

Lemma ids_ok_cons t ms v' vs nm : ids_ok t -> incl vs (vers t) -> next_mid t <= nm ->
  v_active v' < nm -> (forall id, In id (v_sealed v') -> id < nm) ->
  ids_ok {| mems := ms; vers := v' :: vs; next_mid := nm |}.
Proof.
  intros [_ IDS] S LE Ha Hs. split; cbn [vers next_mid]; [discriminate|].
  intros v [<-|Hv]; [split; assumption|]. destruct (IDS v (S v Hv)) as [A B].
  split; [exact (N.lt_le_trans _ _ _ A LE)|]. intros id Hid. exact (N.lt_le_trans _ _ _ (B id Hid) LE).
Qed.

Lemma ids_ok_push t v : ids_ok t ->
  v_active v < next_mid t -> (forall id, In id (v_sealed v) -> id < next_mid t) -> ids_ok (push t v).
Proof. intros OK. apply (ids_ok_cons t); [exact OK|apply incl_refl|reflexivity]. Qed.

Lemma ids_ok_renew t sealed : ids_ok t -> (forall id, In id sealed -> id < next_mid t) -> ids_ok (renew t sealed).
Proof.
  intros OK B. unfold renew, with_latest. destruct (vers t) as [|v0 r] eqn:V; [destruct (proj1 OK V)|].
  apply (ids_ok_cons t); cbn [v_active v_sealed]; [exact OK|rewrite V; apply incl_tl, incl_refl|apply N.le_add_r|apply N.lt_add_pos_r; reflexivity|].
  intros id Hid. apply N.lt_lt_add_r, B, Hid.
Qed.

Lemma latest_ids t : ids_ok t -> v_active (latest t) < next_mid t /\ forall id, In id (v_sealed (latest t)) -> id < next_mid t.
Proof. intros [NE IDS]. apply IDS. unfold latest. destruct (vers t); [congruence|now left]. Qed.

Lemma ids_ok_apply t o : ids_ok t -> ids_ok (apply_top t o).
Proof.
  intros OK. destruct (latest_ids t OK) as [La Ls].
  destruct o as [e| |W s|W s ev f|s|g items|W]; cbn [apply_top].
  - exact OK.
  - rewrite t_rotate_renew. destruct (mem_of t (v_active (latest t))); [exact OK|].
    apply ids_ok_renew; [exact OK|]. intros id [<-|Hid]; auto.
  - destruct (t_flush_cases W s t) as [->| ->]; [exact OK|]. apply ids_ok_maint, ids_ok_push; [exact OK|exact La|intros id []].
  - destruct (t_compact_cases W s ev f t) as [->| ->]; [exact OK|]. apply ids_ok_maint, ids_ok_push; [exact OK|exact La|exact Ls].
  - apply (ids_ok_cons t); cbn [v_active v_sealed]; [exact OK|apply incl_refl|apply N.le_add_r|apply N.lt_add_pos_r; reflexivity|intros id []].
  - apply ids_ok_push; [exact OK|exact La|exact Ls].
  - apply ids_ok_maint, OK.
Qed.

Lemma apply_frozen t o k I : ids_ok t -> op_ok I o -> reads (apply_top t o) k I = reads t k I.
Proof.
  intros OK H.
  destruct o as [e| |W s|W s ev f|s|g items|W]; cbn [apply_top op_ok] in *.
  - apply append_frozen. exact H.
  - apply rotate_frozen. exact OK.
  - apply flush_frozen; apply H.
  - apply compact_frozen; apply H.
  - apply clear_frozen; assumption.
  - apply ingest_register_frozen; assumption.
  - apply maintenance_frozen, H.
Qed.

Theorem run_frozen ops : forall t k I, ids_ok t -> Forall (op_ok I) ops ->
  reads (fold_left apply_top ops t) k I = reads t k I.
Proof.
  induction ops as [|o ops IH]; intros t k I OK F; cbn [fold_left]; [reflexivity|].
  inversion F as [|? ? Ho Hops]; subst.
  rewrite IH; [|apply ids_ok_apply; exact OK|exact Hops].
  apply apply_frozen; assumption.
Qed.

Lemma ids_ok_init : ids_ok tree_init.
Proof. split; cbn; [discriminate|]. intros v [<-|[]]. cbn. split; [reflexivity|intros id []]. Qed.

Lemma select_some t I : I = 0 \/ (exists v, In v (vers t) /\ v_seq v < I) -> select_version t I <> None.
Proof.
  intros H. unfold select_version. destruct (N.eqb_spec I 0); [discriminate|].
  destruct H as [->|(v & Hin & Hv)]; [congruence|].
  destruct (find _ (vers t)) eqn:F; [discriminate|]. apply (find_none _ _ F) in Hin. cbn in Hin. lia.
Qed.
