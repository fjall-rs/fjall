(* DbOrderP.v — the write discipline of OrderP.v with the seqno counter as a bound: for every keyspace the sources of the
   latest version stay ordered by recency and below the counter (DInv), so point reads agree with scans.  This file has
   the tree level and the updates the operations of Db.v are made of; ReachP.v lifts them to every operation.      *)
From FJ Require Import Db BytesP LsmP MapP FilterP SortP OrderP.

Definition below (n : N) (t : tree) : Prop := forall e, In e (concat (srcs t)) -> es e < n.
Definition TB (n : N) (t : tree) : Prop := TInv t /\ below n t.

Lemma below_mono n m t : n <= m -> below n t -> below m t.
Proof. intros L B e I. specialize (B e I). lia. Qed.

Definition fresh_below (n : N) (o : tree_op) : Prop :=
  match o with
  | TAppend e => es e < n
  | TIngest _ items => forall e, In e items -> es e < n
  | _ => True
  end.

(* flush and compaction only move or drop entries: what they leave has the (key, seqno) slot of an entry that was there *)
Lemma below_slots n (l l' : list ent) : (forall e, In e l' -> slot_in e l) -> (forall e, In e l -> es e < n) -> forall e, In e l' -> es e < n.
Proof. intros S B e I. destruct (S e I) as [x [Ix [_ <-]]]. apply B, Ix. Qed.

Lemma below_apply n t o : TInv t -> below n t -> fresh_below n o -> below n (apply_top t o).
Proof.
  intros T B F. unfold below in *.
  destruct o as [e| |W s|W s ev f|s|g items|W]; cbn [apply_top fresh_below] in *.
  - rewrite srcs_append by exact T. unfold srcs in B. cbn [concat tl] in *. intros x Ix. apply in_app_or in Ix.
    destruct Ix as [[<-|Ix]|Ix]; [exact F|apply filter_In in Ix as [Ix _]|]; apply B, in_or_app; auto.
  - rewrite srcs_rotate by exact (ti_ids _ T). destruct (mem_of t _); exact B.
  - destruct (srcs_flush W s t) as [->| ->]; [exact B|]. apply (below_slots n (concat (srcs t))); [|exact B].
    unfold srcs. cbn [concat]. rewrite app_nil_r, concat_snoc, <- flat_map_concat_map.
    intros e. apply slot_in_app; [apply slot_in_self|]. intros x. apply slot_in_app; [apply gc_stream_slots|apply slot_in_self].
  - rewrite srcs_compact. apply (below_slots n (concat (srcs t))); [|exact B].
    unfold srcs. cbn [concat]. rewrite !concat_snoc.
    intros e. apply slot_in_app; [apply slot_in_self|]. intros x. apply slot_in_app; [apply slot_in_self|apply gc_stream_slots].
  - rewrite srcs_clear. intros e [].
  - rewrite srcs_register. unfold srcs in B. cbn [concat] in *. rewrite concat_snoc in *. intros e Ie.
    apply in_app_or in Ie as [Ie|Ie]; [apply B, in_or_app; now left|].
    apply in_app_or in Ie as [Ie|Ie]; [apply B, in_or_app; right; apply in_or_app; now left|].
    apply in_app_or in Ie as [Ie|Ie]; [exact (F e Ie)|apply B, in_or_app; right; apply in_or_app; now right].
  - rewrite srcs_maint. exact B.
Qed.

Theorem tb_apply n n' t o : TB n t -> disciplined t o -> n <= n' -> fresh_below n' o -> TB n' (apply_top t o).
Proof. intros [T B] D L F. split; [apply tinv_step; assumption|apply below_apply; [exact T|eapply below_mono; eassumption|exact F]]. Qed.

(* appending an entry whose seqno is at least the bound: discipline holds, bound moves to seqno + 1 *)
Lemma tb_append n t e : TB n t -> n <= es e -> TB (es e + 1) (t_append t e).
Proof.
  intros T L. apply (tb_apply n _ t (TAppend e) T); cbn; try lia. intros y Iy.
  assert (es y < n); [|lia]. apply (proj2 T). unfold srcs in *. cbn [concat]. apply in_or_app. now right.
Qed.

Lemma tb_init n : TB n tree_init.
Proof. split; [apply tinv_init|]. intros e I. unfold srcs, latest in I. cbn in I. destruct I. Qed.

(* one committed batch (single writes, batches, transaction commits all go through commit_batch) *)
(* while the items of the batch with seqno s are applied: everything below the active memtable is older than s, the active
   memtable may already hold items of the batch *)
Definition P (s : N) (t : tree) : Prop :=
  TInv t /\ (forall y, In y (concat (tl (srcs t))) -> es y < s) /\ (forall y, In y (hd [] (srcs t)) -> es y <= s).

Lemma tb_P s t : TB s t -> P s t.
Proof.
  intros [I B]. split; [exact I|]. unfold below, srcs in *. cbn [concat tl hd] in *.
  split; intros y Iy; [apply B, in_or_app; now right|]. assert (es y < s); [|lia]. apply B, in_or_app. now left.
Qed.
Lemma P_tb s t : P s t -> TB (s + 1) t.
Proof.
  intros [I [T H]]. split; [exact I|]. unfold below, srcs in *. cbn [concat tl hd] in *. intros e Ie. apply in_app_or in Ie.
  destruct Ie as [Ie|Ie]; [specialize (H e Ie)|specialize (T e Ie)]; lia.
Qed.

Lemma P_append s t e : P s t -> es e = s -> P s (t_append t e).
Proof.
  intros [I [T H]] E. split; [apply (tinv_step t (TAppend e) I); cbn; rewrite E; exact T|].
  rewrite srcs_append by exact I. cbn [tl hd]. split; [exact T|]. intros y [<-|Iy]; [lia|]. apply filter_In in Iy as [Iy _]. apply H, Iy.
Qed.

(* a batch with seqno [s] keeps, of every keyspace, what appending an entry with seqno [s] to its tree keeps *)
Lemma fold_apply_inv s (A : kspace -> Prop) :
  (forall k it, A k -> A (with_tree k (t_append (k_tree k) (mkEnt (ri_key it) s (ri_vt it) (ri_value it))))) ->
  forall mi kss, (forall k, In k kss -> A k) -> forall k, In k (fold_left (apply_item s) mi kss) -> A k.
Proof.
  intros S. induction mi as [|it r IH]; intros kss H k I; cbn [fold_left] in I; [apply H, I|]. apply (IH (apply_item s kss it)); [|exact I].
  intros k1 I1. unfold apply_item in I1. apply in_map_iff in I1 as [k2 [<- I2]]. destruct (k_id k2 =? ri_ks it); [apply S|]; apply H, I2.
Qed.

Lemma fold_apply_P s items kss : (forall ks, In ks kss -> P s (k_tree ks)) ->
  forall ks, In ks (fold_left (apply_item s) items kss) -> P s (k_tree ks).
Proof. apply (fold_apply_inv s (fun k => P s (k_tree k))). intros k it H. apply P_append; [exact H|reflexivity]. Qed.

Definition DInv (d : db) : Prop := forall ks, In ks (d_kss d) -> TB (d_seqno d) (k_tree ks).

Theorem commit_batch_dinv d ji mi : DInv d -> DInv (commit_batch d ji mi).
Proof.
  intros H ks I. unfold commit_batch in *. cbn [d_kss d_seqno upd upd_journal] in *.
  apply P_tb. eapply fold_apply_P; [|exact I]. intros k0 I0. apply tb_P, H, I0.
Qed.

Theorem write_one_dinv d id k v vt mvt : DInv d -> DInv (fst (write_one d id k v vt mvt)).
Proof.
  intros H. unfold write_one. destruct (ks_of d id) as [ks|]; [|exact H].
  destruct (k_deleted ks); [exact H|]. destruct (d_poisoned d); [exact H|]. cbn [fst]. apply commit_batch_dinv, H.
Qed.

(* the conclusion for readers: in every state satisfying the invariant, for every keyspace, key and instant, the point read
   of the latest version returns exactly the entry a scan shows *)
Theorem dinv_reads_agree d ks k I : DInv d -> In ks (d_kss d) ->
  v_get_ent (k_tree ks) (latest (k_tree ks)) k I = newest k I (v_all (k_tree ks) (latest (k_tree ks))).
Proof.
  intros H Iks. apply tinv_reads_agree, (H ks Iks).
Qed.

Lemma dinv_init mode filters : DInv (db_init mode filters).
Proof. intros ks []. Qed.

(* any sequence of single writes (insert / remove / weak remove through any keyspace handle) from any state satisfying the
   invariant: reads agree afterwards *)
Theorem writes_keep_reads_agreeing ws : forall d,
  DInv d -> DInv (fold_left (fun d w => let '(id, k, v, vt, mvt) := w in fst (write_one d id k v vt mvt)) ws d).
Proof.
  induction ws as [|w r IH]; intros d H; cbn [fold_left]; [exact H|].
  apply IH. destruct w as [[[[id k] v] vt] mvt]. apply write_one_dinv, H.
Qed.

Lemma ks_of_in d id ks : ks_of d id = Some ks -> In ks (d_kss d).
Proof. unfold ks_of. intros K. apply find_some in K. tauto. Qed.

Lemma find_id_map f kss id : (forall x, k_id (f x) = k_id x) ->
  find (fun k => k_id k =? id) (map f kss) = option_map f (find (fun k => k_id k =? id) kss).
Proof.
  intros H. induction kss as [|a r IH]; cbn [map find]; [reflexivity|].
  rewrite H. destruct (k_id a =? id); [reflexivity|exact IH].
Qed.

(* [set_ks]: the object registered under an id replaced by one with the same id *)
Lemma ks_of_set d n trk id ks ks' i : ks_of d id = Some ks -> k_id ks' = k_id ks ->
  ks_of (upd d n trk (set_ks d ks')) i = if i =? id then Some ks' else ks_of d i.
Proof.
  intros K E. pose proof (find_some _ _ K) as [_ Ei%N.eqb_eq]. unfold ks_of, set_ks in *. cbn [d_kss upd].
  rewrite find_id_map, E, Ei by (intros x; destruct (N.eqb_spec (k_id x) (k_id ks')); congruence).
  destruct (N.eqb_spec i id) as [->|NE]; [rewrite K; cbn; rewrite Ei, N.eqb_refl; reflexivity|].
  destruct (find (fun k => k_id k =? i) _) as [x|] eqn:F; [|reflexivity]. apply find_some in F as [_ <-%N.eqb_eq]. cbn.
  rewrite (proj2 (N.eqb_neq _ _) NE). reflexivity.
Qed.

(* a property of every keyspace's tree relative to the seqno counter, under the shapes of update Db.v makes to the
   keyspace list: nothing, a map, one object replaced ([DInv] is [kall TB]; RefineP's [VB] is [kall vb]) *)
Section KAll.
  Variable A : N -> tree -> Prop.
  Hypothesis A_mono : forall n m t, n <= m -> A n t -> A m t.
  Definition kall (d : db) : Prop := forall ks, In ks (d_kss d) -> A (d_seqno d) (k_tree ks).

  Lemma kall_map d d' (f : kspace -> kspace) :
    d_kss d' = map f (d_kss d) -> d_seqno d <= d_seqno d' -> (forall k n, A n (k_tree k) -> A n (k_tree (f k))) -> kall d -> kall d'.
  Proof. intros E L F H ks I. rewrite E in I. apply in_map_iff in I as [k0 [<- I0]]. apply F, (A_mono _ _ _ L), H, I0. Qed.

  Lemma kall_ext d d' : d_kss d' = d_kss d -> d_seqno d <= d_seqno d' -> kall d -> kall d'.
  Proof. intros E L. apply (kall_map d d' (fun k => k)); [rewrite map_id; exact E|exact L|auto]. Qed.

  Lemma kall_set d n trk ks' : A n (k_tree ks') -> d_seqno d <= n -> kall d -> kall (upd d n trk (set_ks d ks')).
  Proof.
    intros T L H k0 I. cbn [d_kss d_seqno upd] in *. unfold set_ks in I. apply in_map_iff in I as [k1 [<- I1]].
    destruct (k_id k1 =? k_id ks'); [exact T|apply (A_mono _ _ _ L), H, I1].
  Qed.
End KAll.

Lemma tb_mono n m t : n <= m -> TB n t -> TB m t.
Proof. intros L [A B]. split; [exact A|eapply below_mono; eassumption]. Qed.

Lemma dinv_map d d' (f : kspace -> kspace) :
  d_kss d' = map f (d_kss d) -> d_seqno d <= d_seqno d' ->
  (forall k n, TB n (k_tree k) -> TB n (k_tree (f k))) -> DInv d -> DInv d'.
Proof. exact (kall_map TB tb_mono d d' f). Qed.
Lemma dinv_ext d d' : d_kss d' = d_kss d -> d_seqno d <= d_seqno d' -> DInv d -> DInv d'.
Proof. exact (kall_ext TB tb_mono d d'). Qed.

Lemma sort_ents_nonempty l : l <> [] -> sort_ents l <> [].
Proof. destruct l as [|x r]; [congruence|]. intros _ E. apply (in_nil (a := x)). rewrite <- E. apply sort_ents_in. now left. Qed.
Lemma gc_stream_nonempty W f l : l <> [] -> gc_stream W false f l <> [].
Proof.
  intros NE. unfold gc_stream. pose proof (sort_ents_nonempty l NE) as S. destruct (sort_ents l) as [|e0 t]; [congruence|].
  cbn [length]. rewrite gc_groups_cons. destruct (take_key (ek e0) t) as [g r].
  (* without tombstone eviction the head of the first key group stays *)
  destruct (gc_key_head W false f e0 g) as [[_ [_ E]]|[rest [-> _]]]; discriminate.
Qed.

Lemma rotate_active_nil t : mem_of (fst (t_rotate t)) (v_active (latest (fst (t_rotate t)))) = [].
Proof. rewrite t_rotate_renew. destruct (mem_of t _) eqn:ME; [exact ME|]. rewrite latest_renew. apply mem_of_new. Qed.

(* a flush without GC leaves nothing in memory when the active memtable is empty: what it writes is not empty unless the
   sealed memtables were *)
Lemma flush0_ready s t g items : mem_of t (v_active (latest t)) = [] -> disciplined (fst (t_flush 0 s t)) (TIngest g items).
Proof.
  intros A. unfold t_flush. cbn [disciplined]. destruct (v_sealed (latest t)) as [|i0 ids] eqn:SE; cbn [fst]; [rewrite SE; auto|].
  destruct (flat_map (mem_of t) (i0 :: ids)) as [|x xs] eqn:FM.
  - change (gc_stream 0 false None []) with (@nil ent). cbn [fst]. rewrite SE. rewrite flat_map_concat_map in FM. apply concat_nil_Forall, Forall_map in FM. split; [exact A|exact FM].
  - destruct (gc_stream 0 false None (x :: xs)) eqn:G; [exfalso; revert G; apply gc_stream_nonempty; discriminate|]. cbn [fst].
    change (vh_maintenance 0 ?X) with X. split; [exact A|constructor].
Qed.

(* the entries of an ingested table carry the one seqno drawn for it *)
Definition ient (g : N) (it : iitem) : ent := match it with IPut k v => mkEnt k g VValue v | ITomb k => mkEnt k g VTomb [] end.
Lemma ient_seq g items e : In e (map (ient g) items) -> es e = g.
Proof. intros I. apply in_map_iff in I as [it [<- _]]. destruct it; reflexivity. Qed.

(* the tree part of do_ingest *)
Definition ingest_tree (t : tree) (s g : N) (ents : list ent) : tree :=
  let t1 := fst (t_rotate t) in
  let t2 := match v_sealed (latest t1) with [] => t1 | _ => fst (t_flush 0 s t1) end in
  t_register_ingest g ents t2.

Lemma ingest_tree_run t s g ents : ingest_tree t s g ents = fold_left apply_top [TRotate; TFlush 0 s; TIngest g ents] t.
Proof.
  unfold ingest_tree. cbn [fold_left apply_top]. destruct (v_sealed (latest (fst (t_rotate t)))) eqn:SE; [|reflexivity].
  unfold t_flush. rewrite SE. reflexivity.
Qed.

(* WBatch: the items journaled and the items applied, as commit_batch takes them ([write_one] journals the type [vt] and
   applies [mvt]; Prog.v passes one list twice); WDrain: worker steps until the queue is empty, at most [fuel] of them;
   WRotate' is primed because WRotate is a message of the worker queue *)
Inductive wop :=
| WKs (h : N) (name : bytes) | WWrite (id : N) (k v : bytes) (vt mvt : vtype) | WBatch (ji mi : list ritem)
| WClear (id : N) | WRotate' (id : N) | WStep | WDrain (fuel : nat) | WMajor (id : N) (evict : bool) | WIngest (id : N) (items : list iitem).
Definition wstep (d : db) (o : wop) : db :=
  match o with
  | WKs h name => fst (do_ks d h name)
  | WWrite id k v vt mvt => fst (write_one d id k v vt mvt)
  | WBatch ji mi => commit_batch d ji mi
  | WClear id => fst (do_clear d id)
  | WRotate' id => fst (do_rotate d id)
  | WStep => fst (do_step d)
  | WDrain fuel => fst (do_drain fuel d 0)
  | WMajor id ev => do_compact d id ev
  | WIngest id items => fst (do_ingest d id items)
  end.

(* non-vacuity: a program over these operations that leaves data in memtable, sealed memtable and tables of a keyspace *)
Definition db_example : list wop :=
  [WKs 0 [97]; WWrite 1 [107] [1] VValue VValue; WRotate' 1; WStep; WWrite 1 [107] [2] VValue VValue;
   WIngest 1 [IPut [106] [7]; ITomb [107]]; WWrite 1 [108] [3] VValue VValue; WRotate' 1; WWrite 1 [107] [4] VValue VValue;
   WMajor 1 true; WClear 1; WWrite 1 [105] [9] VValue VValue].
Lemma db_example_nonempty :
  exists ks, In ks (d_kss (fold_left wstep db_example (db_init MPlain []))) /\
             v_all (k_tree ks) (latest (k_tree ks)) <> [].
Proof. vm_compute. eexists. split; [left; reflexivity|discriminate]. Qed.
