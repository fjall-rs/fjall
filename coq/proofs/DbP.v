(* DbP.v — database-level glue: the parameters fjall hands to the trees satisfy what
   the frozen-read theorem needs, for every live snapshot instant. *)
From FJ Require Import Db LsmP TrackerP.

Definition vis_le_seq (d : db) : Prop := visible (d_trk d) <= d_seqno d.

Lemma draw_version_ok d : vis_le_seq d ->
  snd (draw_version d) = d_seqno d /\ vis_le_seq (fst (draw_version d)) /\
  d_seqno (fst (draw_version d)) = d_seqno d + 1 /\
  lowest_freed (d_trk (fst (draw_version d))) = lowest_freed (d_trk d) /\
  tdata (d_trk (fst (draw_version d))) = tdata (d_trk d).
Proof.
  unfold vis_le_seq, draw_version. cbn. intros H. repeat split; lia.
Qed.

Lemma commit_batch_ok d ji mi : vis_le_seq d -> vis_le_seq (commit_batch d ji mi).
Proof. unfold vis_le_seq, commit_batch. cbn. lia. Qed.

(* for every live view (instant i): the seqno the next write / version upgrade draws is >= i,
   and the GC watermark handed to flush, compaction and version-history maintenance is <= i *)
Theorem params_ok d live i :
  Inv (d_trk d) live -> vis_le_seq d -> In i live ->
  i <= d_seqno d /\ W_of d <= i.
Proof.
  intros I V Hi. unfold W_of, vis_le_seq in *.
  pose proof (inv_wm_live _ _ I i Hi). pose proof (live_le_visible _ _ i I Hi). lia.
Qed.

Corollary tree_ops_ok d live i e f evict items :
  Inv (d_trk d) live -> vis_le_seq d -> In i live -> d_seqno d <= es e ->
  op_ok i (TAppend e) /\ op_ok i (TFlush (W_of d) (d_seqno d)) /\
  op_ok i (TCompact (W_of d) (d_seqno d) evict f) /\ op_ok i (TClear (d_seqno d)) /\
  op_ok i (TIngest (d_seqno d) items) /\ op_ok i (TMaint (W_of d)) /\ op_ok i TRotate.
Proof.
  intros I V Hi He. destruct (params_ok d live i I V Hi) as [A B]. cbn [op_ok]. repeat split; lia.
Qed.
