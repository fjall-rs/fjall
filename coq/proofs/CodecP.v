(* CodecP.v — entry codec: round trip, locality of the decoder, tag facts,
   and what a truncated, zero-padded entry decodes to *)
From FJ Require Import Codec BytesP.
From Coq Require Import PeanoNat.

(* source-derived facts the proofs rely on; 0 is the padding byte *)
Lemma tags_nonzero : TAG_START <> 0 /\ TAG_ITEM <> 0 /\ TAG_END <> 0 /\ TAG_CLEAR <> 0.
Proof. repeat split; discriminate. Qed.
Lemma tags_distinct :
  TAG_START <> TAG_ITEM /\ TAG_START <> TAG_END /\ TAG_START <> TAG_CLEAR /\
  TAG_ITEM <> TAG_END /\ TAG_ITEM <> TAG_CLEAR /\ TAG_END <> TAG_CLEAR.
Proof. repeat split; discriminate. Qed.
Lemma tags_byte : TAG_START < 256 /\ TAG_ITEM < 256 /\ TAG_END < 256 /\ TAG_CLEAR < 256.
Proof. repeat split; reflexivity. Qed.
Lemma magic_last_nonzero : last MAGIC 0 <> 0.
Proof. discriminate. Qed.
Lemma magic_length : length MAGIC = 4%nat.
Proof. reflexivity. Qed.

Lemma vtype_code_roundtrip vt : vtype_of_code (vtype_code vt) = Some vt.
Proof. destruct vt; reflexivity. Qed.
Lemma comp_code_roundtrip c : comp_of_code (comp_code c) = Some c.
Proof. destruct c; reflexivity. Qed.

Set Default Proof Using "Type".

Section CodecP.
  Variable compress : bytes -> bytes.
  Variable decompress : bytes -> N -> option bytes.

  Notation enc_entry := (enc_entry compress).
  Notation dec_entry := (dec_entry decompress).
  Notation stored_of := (stored_of compress).

  Definition wf_entry (e : entry) : Prop :=
    match e with
    | EStart c s => c < 2 ^ 32 /\ s < 2 ^ 64
    | EItem ks k v vt c =>
        ks < 2 ^ 64 /\ blen k < 2 ^ 16 /\ blen v < 2 ^ 32 /\ blen (stored_of v c) < 2 ^ 32 /\
        (c = CLz4 -> decompress (compress v) (blen v) = Some v)
    | EEnd x => x < 2 ^ 64
    | EClear ks => ks < 2 ^ 64
    end.

  Definition kind_of (e : entry) : N :=
    match e with EStart _ _ => TAG_START | EItem _ _ _ _ _ => TAG_ITEM
               | EEnd _ => TAG_END | EClear _ => TAG_CLEAR end.

  Definition dec_tag (t : N) : parser entry :=
    if t =? TAG_START then dec_start
    else if t =? TAG_ITEM then dec_item decompress
    else if t =? TAG_END then dec_end
    else if t =? TAG_CLEAR then dec_clear
    else pfail.

  Lemma dec_entry_tag : dec_entry = (t <- pnum 1 ;; dec_tag t).
  Proof. reflexivity. Qed.

  Lemma enc_records_cons r rs :
    enc_records compress (r :: rs) = enc_entry (entry_of_record r) ++ enc_records compress rs.
  Proof. reflexivity. Qed.

  Lemma enc_entry_head e : exists tl, enc_entry e = kind_of e :: tl.
  Proof. destruct e; eexists; reflexivity. Qed.

  Lemma dec_tag_kind t : yields (dec_tag t) (fun e => kind_of e = t).
  Proof.
    unfold dec_tag.
    destruct (N.eqb_spec t TAG_START) as [->|_]; [|destruct (N.eqb_spec t TAG_ITEM) as [->|_];
      [|destruct (N.eqb_spec t TAG_END) as [->|_]; [|destruct (N.eqb_spec t TAG_CLEAR) as [->|_];
        [|apply yields_pfail]]]];
      repeat (apply yields_pbind; intro); now apply yields_pret.
  Qed.

  Theorem dec_enc_entry e r : wf_entry e ->
    dec_entry (enc_entry e ++ r) = Some (e, r, blen (enc_entry e)).
  Proof.
    intros W. revert r. change (accepts dec_entry (enc_entry e) e).
    rewrite <- (app_nil_r (enc_entry e)), dec_entry_tag.
    destruct e as [c s|ks k v vt c|x|ks]; cbn [wf_entry] in W; cbn [Codec.enc_entry app];
      rewrite <- ?app_assoc; apply accepts_bind_byte.
    - destruct W as [Wc Ws]. change (dec_tag TAG_START) with dec_start. unfold dec_start.
      eapply accepts_bind; [now apply accepts_num|].
      eapply accepts_bind; [now apply accepts_num|]. apply accepts_ret.
    - destruct W as (Wks & Wk & Wv & Ws & Wl). fold (stored_of v c).
      change (dec_tag TAG_ITEM) with (dec_item decompress). unfold dec_item.
      apply accepts_bind_byte. rewrite vtype_code_roundtrip.
      apply accepts_ret_bind.
      apply accepts_bind_byte. rewrite comp_code_roundtrip.
      apply accepts_ret_bind.
      eapply accepts_bind; [now apply accepts_num|].
      eapply accepts_bind; [now apply accepts_num|].
      eapply accepts_bind; [now apply accepts_num|].
      eapply accepts_bind; [now apply accepts_num|].
      eapply accepts_bind; [apply accepts_take|].
      eapply accepts_bind; [apply accepts_take|].
      replace (match c with CNone => _ | CLz4 => _ end) with (Some v).
      + apply accepts_ret_bind, accepts_ret.
      + destruct c; cbn [Codec.stored_of]; [now rewrite N.eqb_refl|]. symmetry. now apply Wl.
    - change (dec_tag TAG_END) with dec_end. unfold dec_end.
      eapply accepts_bind; [now apply accepts_num|].
      eapply accepts_bind; [exact (accepts_take MAGIC)|].
      rewrite list_eqb_refl. apply accepts_ret_bind, accepts_ret.
    - change (dec_tag TAG_CLEAR) with dec_clear. unfold dec_clear.
      eapply accepts_bind; [now apply accepts_num|]. apply accepts_ret.
  Qed.

  Lemma local_dec_entry : local dec_entry.
  Proof.
    rewrite dec_entry_tag. apply local_pbind; [apply local_pnum|]. intros t.
    unfold dec_tag. repeat destruct (t =? _); unfold dec_start, dec_item, dec_end, dec_clear; auto 20 with local.
  Qed.

  Lemma dec_entry_nil : dec_entry [] = None.
  Proof using All. reflexivity. Qed.

  Lemma dec_entry_inv l e r n : dec_entry l = Some (e, r, n) ->
    exists l' n', l = kind_of e :: l' /\ dec_tag (kind_of e) l' = Some (e, r, n') /\ n = 1 + n'.
  Proof.
    destruct l as [|t l]; [discriminate|]. rewrite dec_entry_tag. intros H.
    apply pbind_inv in H as (t' & r1 & n1 & n' & P & F & ->).
    rewrite (accepts_byte t l : pnum 1 (t :: l) = _) in P. injection P as <- <- <-.
    rewrite (dec_tag_kind _ _ _ _ _ F). eauto.
  Qed.

  Lemma dec_end_shape l x r n : dec_entry l = Some (EEnd x, r, n) ->
    exists c, l = c ++ MAGIC ++ r.
  Proof.
    intros H. apply dec_entry_inv in H as (l' & n' & -> & F & _).
    change (dec_end l' = Some (EEnd x, r, n')) in F.
    apply pbind_inv in F as (x' & r1 & ? & ? & P1 & F & _).
    apply local_pnum in P1 as (c8 & -> & _).
    apply pbind_inv in F as (m & r2 & ? & ? & P2 & F & _).
    apply ptake_inv in P2 as (-> & _).
    apply pbind_inv in F as (u & r3 & ? & ? & P3 & F & _).
    destruct (list_eqb m MAGIC) eqn:E; [|discriminate]. apply list_eqb_eq in E as ->.
    injection P3 as _ <- _. injection F as _ <- _.
    exists (TAG_END :: c8). reflexivity.
  Qed.

  Lemma dec_entry_shorter l e r n : dec_entry l = Some (e, r, n) -> (length r < length l)%nat.
  Proof.
    intros H. destruct (local_dec_entry _ _ _ _ H) as ([|t c] & -> & _ & A).
    - discriminate (A []).
    - cbn [app length]. rewrite app_length. apply le_n_S, Nat.le_add_l.
  Qed.

  Lemma dec_zeros z : dec_entry (zeros z) = None.
  Proof.
    destruct z; [reflexivity|]. rewrite dec_entry_tag. unfold pbind.
    now rewrite (accepts_byte 0 (zeros z) : pnum 1 (zeros (S z)) = _).
  Qed.

  Lemma enc_entry_prefix_free e c s e' :
    wf_entry e -> enc_entry e = c ++ s -> accepts dec_entry c e' -> s = [].
  Proof.
    intros W E A. pose proof (dec_enc_entry e [] W) as RT.
    rewrite app_nil_r, E, (A s) in RT. now injection RT.
  Qed.

  (* decoding a strict prefix of an entry, continued by zeros: either nothing,
     or a garbled entry of the same kind that is not an End marker and that
     swallows the whole rest of the real bytes *)
  Lemma cut_entry {e m z e' r' n'} :
    wf_entry e -> (m < length (enc_entry e))%nat ->
    dec_entry (firstn m (enc_entry e) ++ zeros z) = Some (e', r', n') ->
    kind_of e' = kind_of e /\ (forall x, e' <> EEnd x) /\ exists z', r' = zeros z'.
  Proof.
    intros W Hm D.
    pose proof (firstn_skipn m (enc_entry e)) as SP.
    assert (NS : skipn m (enc_entry e) <> []).
    { intros E. apply (f_equal (@length _)) in E. rewrite skipn_length in E. cbn in E. lia. }
    destruct (local_dec_entry _ _ _ _ D) as (c & EQ & _ & A).
    apply app_eq_app in EQ as [l [[E1 E2]|[E1 E2]]].
    { (* the decoder stopped inside the real bytes *)
      rewrite E1, <- app_assoc in SP. symmetry in SP.
      now destruct (app_eq_nil _ _ (enc_entry_prefix_free _ _ _ _ W SP A)). }
    destruct l as [|y l].
    { rewrite app_nil_r in E1. subst c. symmetry in SP.
      destruct (NS (enc_entry_prefix_free _ _ _ _ W SP A)). }
    (* the decoder ran into the zero padding *)
    split; [|split; [|exact (zeros_suffix _ _ _ E2)]].
    - destruct (enc_entry_head e) as [tl HE]. rewrite HE in D.
      destruct m; cbn [firstn app] in D; [rewrite dec_zeros in D; discriminate D|].
      apply dec_entry_inv in D as (? & ? & [= ->] & _). reflexivity.
    - (* an End marker ends with the last magic byte, which would lie in the zeros *)
      intros x ->. apply dec_end_shape in D as (c9 & D).
      destruct (exists_last (l := y :: l)) as (l0 & b & EL); [discriminate|]. rewrite EL in E2.
      assert (B : b = 0) by (apply (zeros_all z); rewrite E2, <- app_assoc; apply in_elt).
      rewrite E2, (app_removelast_last 0 (l := MAGIC)), !app_assoc in D by discriminate.
      apply app_inv_tail, app_inj_tail in D as [_ D].
      rewrite B in D. exact (magic_last_nonzero (eq_sym D)).
  Qed.

  Lemma enc_entry_inj e1 e2 r1 r2 :
    wf_entry e1 -> wf_entry e2 -> enc_entry e1 ++ r1 = enc_entry e2 ++ r2 -> e1 = e2 /\ r1 = r2.
  Proof.
    intros W1 W2 E. pose proof (dec_enc_entry e1 r1 W1) as D.
    rewrite E, dec_enc_entry in D by exact W2. injection D as -> ->. split; reflexivity.
  Qed.
End CodecP.
