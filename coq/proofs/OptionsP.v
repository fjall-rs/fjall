(* OptionsP.v — round trips of the option codecs and of the stored option form *)
From FJ Require Import BytesP CodecP Options.

Definition u32 (x : N) : Prop := x < 2 ^ 32.
Definition u8 (x : N) : Prop := x < 256.

(* the guard of the one-byte length prefix; it has a name because [255%nat] is a unary numeral, and every statement
   that spells it out pays for a copy *)
Definition fits {A} (l : list A) : Prop := (length l <= 255)%nat.

Lemma accepts_run {A} {p : parser A} {c a} : accepts p c a -> run_all p c = Some a.
Proof. intros H. unfold run_all. now rewrite <- (app_nil_r c), H. Qed.

Lemma run_pnum w x : x < 256 ^ w -> run_all (pnum w) (le_enc (N.to_nat w) x) = Some x.
Proof. intros H. apply accepts_run, accepts_num, H. Qed.

Section ListCodec.
  Context {A : Type} (item : parser A) (enc : A -> bytes) (ok : A -> Prop).
  Hypothesis item_enc : forall x, ok x -> accepts item (enc x) x.

  Lemma pmany_enc l : Forall ok l -> accepts (pmany item (length l)) (flat_map enc l) l.
  Proof.
    induction 1 as [|x l Hx _ IH]; cbn [length pmany flat_map]; [apply accepts_ret|].
    apply accepts_bind with x; [auto|]. apply accepts_bind_ret, IH.
  Qed.

  Lemma plist_enc l : Forall ok l -> fits l ->
    run_all (plist item) (len_byte l :: flat_map enc l) = Some l.
  Proof.
    intros F L. apply accepts_run, accepts_bind_byte. unfold len_byte, fits in *.
    rewrite N.mod_small, Nat2N.id by lia. exact (pmany_enc l F).
  Qed.
End ListCodec.

Lemma flat_map_single {A} (f : A -> N) l : flat_map (fun x => [f x]) l = map f l.
Proof. induction l; cbn; congruence. Qed.

Lemma plist_enc1 {A} (item : parser A) (code : A -> N) :
  (forall x, accepts item [code x] x) ->
  forall l, fits l -> run_all (plist item) (len_byte l :: map code l) = Some l.
Proof.
  intros H l. rewrite <- flat_map_single.
  apply (plist_enc _ _ (fun _ => True)); [auto|apply Forall_forall; auto].
Qed.

Lemma u32s_roundtrip l : Forall u32 l -> fits l -> dec_u32s (enc_u32s l) = Some l.
Proof. apply plist_enc. exact (accepts_num 4). Qed.

(* [[x mod 256]] is [le_enc 1 x] *)
Lemma u8s_roundtrip l : Forall u8 l -> fits l -> dec_u8s (enc_u8s l) = Some l.
Proof. unfold enc_u8s. rewrite <- flat_map_single. apply plist_enc. exact (accepts_num 1). Qed.

Lemma bools_roundtrip l : fits l -> dec_bools (enc_bools l) = Some l.
Proof. apply plist_enc1. intros x. apply accepts_bind_byte. destruct x; apply accepts_ret. Qed.

Lemma comp_byte c : accepts (c <- pnum 1 ;; popt (comp_of_code c)) [comp_code c] c.
Proof. apply accepts_bind_byte. rewrite comp_code_roundtrip. apply accepts_ret. Qed.

Lemma comps_roundtrip l : fits l -> dec_comps (enc_comps l) = Some l.
Proof. apply plist_enc1, comp_byte. Qed.

Definition wf_fentry (e : fentry) : Prop :=
  match e with FNoFilter => True | FBits b => u32 b | FFpr b => u32 b end.

Lemma filters_roundtrip l : Forall wf_fentry l -> fits l -> dec_filters (enc_filters l) = Some l.
Proof.
  apply plist_enc. intros [|b|b] Hb; cbn [enc_fentry]; apply accepts_bind_byte; [apply accepts_ret| |].
  all: apply accepts_bind_byte, accepts_bind_ret, (accepts_num 4), Hb.
Qed.

(* the length byte wraps at 256: the guard is necessary (cf. level_ratio_policy, which no setter bounds) *)
Example len_byte_wraps : dec_u32s (enc_u32s (repeat 0 256)) = Some [].
Proof. reflexivity. Qed.

Definition wf_strategy (s : strategy) : Prop :=
  match s with
  | SLeveled l0 target ratios => u8 l0 /\ target < 2 ^ 64 /\ Forall u32 ratios /\ (length ratios <= 255)%nat
  | SFifo limit ttl => limit < 2 ^ 64 /\ match ttl with Some t => t < 2 ^ 64 | None => True end
  end.
Definition wf_blob (b : option blobopts) : Prop :=
  match b with
  | None => True
  | Some o => u32 (b_thr o) /\ b_target o < 2 ^ 64 /\ u32 (b_stale o) /\ u32 (b_age o)
  end.
Definition wf_opts (o : opts) : Prop :=
  o_mt o < 2 ^ 64 /\
  Forall u32 (o_dbs o) /\ (length (o_dbs o) <= 255)%nat /\
  Forall u8 (o_dbri o) /\ (length (o_dbri o) <= 255)%nat /\
  Forall u8 (o_ibri o) /\ (length (o_ibri o) <= 255)%nat /\
  Forall u32 (o_dbhr o) /\ (length (o_dbhr o) <= 255)%nat /\
  (length (o_ibpin o) <= 255)%nat /\ (length (o_fbpin o) <= 255)%nat /\
  (length (o_ibpart o) <= 255)%nat /\ (length (o_fbpart o) <= 255)%nat /\
  (length (o_dbc o) <= 255)%nat /\ (length (o_ibc o) <= 255)%nat /\
  Forall wf_fentry (o_fp o) /\ (length (o_fp o) <= 255)%nat /\
  wf_strategy (o_strategy o) /\ wf_blob (o_blob o).

Definition with_levels7 (o : opts) : opts :=
  {| o_mt := o_mt o; o_manual := o_manual o; o_eprh := o_eprh o;
     o_dbs := o_dbs o; o_dbri := o_dbri o; o_ibri := o_ibri o; o_dbhr := o_dbhr o;
     o_ibpin := o_ibpin o; o_fbpin := o_fbpin o; o_ibpart := o_ibpart o; o_fbpart := o_fbpart o;
     o_dbc := o_dbc o; o_ibc := o_ibc o; o_fp := o_fp o; o_levels := 7;
     o_strategy := o_strategy o; o_blob := o_blob o |}.

(* [encode_kvs o] with the strategy and the blob options as parameters: the lookups of [dec_strategy] and [dec_blob]
   compute once these are constructors, those in the sixteen rows before them whatever they are *)
Definition kvs_with (o : opts) (s : strategy) (b : option blobopts) : list row :=
  firstn 16 (encode_kvs o) ++ strategy_rows s ++ blob_rows b.

(* [dec_strategy_rows], [dec_blob_rows] and [kvs_roundtrip] each begin with the finite fact about the table, checked by evaluation: every key the
   decoder looks up is there, and this is what it has left to decode.  Why that decodes is the round trips above. *)

Lemma dec_strategy_rows o s b : wf_strategy s -> dec_strategy (kvs_with o s b) = Some s.
Proof.
  destruct s as [l0 tg ratios|lim [t|]].
  - intros (W1 & W2 & W3 & W4).
    change (dec_strategy _) with
      (l0' <-- run_all (pnum 1) (le_enc 1 l0) ;;; tg' <-- run_all (pnum 8) (le_enc 8 tg) ;;;
       rp' <-- dec_u32s (enc_u32s ratios) ;;; Some (SLeveled l0' tg' rp')).
    rewrite (run_pnum 1), (run_pnum 8), u32s_roundtrip by assumption. reflexivity.
  - intros (W1 & W2).
    change (dec_strategy _) with
      (lim' <-- run_all (pnum 8) (le_enc 8 lim) ;;; t' <-- run_all (pnum 8) (le_enc 8 t) ;;;
       Some (SFifo lim' (Some t'))).
    rewrite !(run_pnum 8) by assumption. reflexivity.
  - intros (W1 & _).
    change (dec_strategy _) with (lim' <-- run_all (pnum 8) (le_enc 8 lim) ;;; Some (SFifo lim' None)).
    rewrite (run_pnum 8) by assumption. reflexivity.
Qed.

(* the blob rows come last, so their lookups walk past the strategy rows, whichever they are *)
Lemma dec_blob_rows o s b : wf_blob b -> dec_blob (kvs_with o s b) = Some b.
Proof.
  destruct b as [[thr tg stale age cp]|]; [|destruct s; reflexivity]. intros (W1 & W2 & W3 & W4).
  transitivity
    (age' <-- run_all (pnum 4) (le_enc 4 age) ;;;
     cp' <-- run_all (c <- pnum 1 ;; popt (comp_of_code c)) [comp_code cp] ;;;
     tg' <-- run_all (pnum 8) (le_enc 8 tg) ;;;
     th' <-- run_all (pnum 4) (le_enc 4 thr) ;;;
     st' <-- run_all (pnum 4) (le_enc 4 stale) ;;;
     Some (Some {| b_thr := th'; b_target := tg'; b_stale := st'; b_age := age'; b_comp := cp' |})).
  { destruct s; reflexivity. }
  rewrite !(run_pnum 4), (run_pnum 8), (accepts_run (comp_byte _)) by assumption. reflexivity.
Qed.

Lemma bool_byte (b : bool) : list_eqb [if b then 1 else 0] [1] = b.
Proof. now destruct b. Qed.

(* C16: every option value that can be set round-trips through the stored form
   (level_count is deliberately restored as 7 by the code) *)
Theorem kvs_roundtrip o : wf_opts o -> from_kvs (encode_kvs o) = Some (with_levels7 o).
Proof.
  (* [wf_opts] writes 255 in unary eleven times: the numeral is shared before the conjunction is taken apart,
     which would otherwise copy what is left of it at every step *)
  unfold wf_opts. set (n := 255%nat). intros W. decompose [and] W.
  change (encode_kvs o) with (kvs_with o (o_strategy o) (o_blob o)).
  change (from_kvs ?rows) with
    (dbc <-- dec_comps (enc_comps (o_dbc o)) ;;;
     ibc <-- dec_comps (enc_comps (o_ibc o)) ;;;
     dbs <-- dec_u32s (enc_u32s (o_dbs o)) ;;;
     fbpart <-- dec_bools (enc_bools (o_fbpart o)) ;;;
     ibpart <-- dec_bools (enc_bools (o_ibpart o)) ;;;
     fbpin <-- dec_bools (enc_bools (o_fbpin o)) ;;;
     ibpin <-- dec_bools (enc_bools (o_ibpin o)) ;;;
     dbri <-- dec_u8s (enc_u8s (o_dbri o)) ;;;
     ibri <-- dec_u8s (enc_u8s (o_ibri o)) ;;;
     dbhr <-- dec_u32s (enc_u32s (o_dbhr o)) ;;;
     fp <-- dec_filters (enc_filters (o_fp o)) ;;;
     blob <-- dec_blob rows ;;;
     strat <-- dec_strategy rows ;;;
     mt <-- run_all (pnum 8) (le_enc 8 (o_mt o)) ;;;
     Some {| o_mt := mt; o_manual := list_eqb [if o_manual o then 1 else 0] [1];
             o_eprh := list_eqb [if o_eprh o then 1 else 0] [1];
             o_dbs := dbs; o_dbri := dbri; o_ibri := ibri; o_dbhr := dbhr;
             o_ibpin := ibpin; o_fbpin := fbpin; o_ibpart := ibpart; o_fbpart := fbpart;
             o_dbc := dbc; o_ibc := ibc; o_fp := fp; o_levels := 7; o_strategy := strat; o_blob := blob |}).
  rewrite dec_blob_rows, dec_strategy_rows by assumption.
  rewrite !comps_roundtrip, !u32s_roundtrip, !bools_roundtrip, !u8s_roundtrip, filters_roundtrip, (run_pnum 8) by assumption.
  rewrite !bool_byte. reflexivity.
Qed.
