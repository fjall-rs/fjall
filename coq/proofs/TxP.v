(* TxP.v — writes with a fresh seqno, and the transaction-local semantics of the ephemeral overlay (tx/write_tx.rs)
   built from them: read-your-writes, last write wins, commit keeps exactly the final write per key. *)
From FJ Require Import Prog MapP.

(* a transaction-local write: key, and Some value (insert) or None (remove) *)
Definition twrite := (bytes * option bytes)%type.

Definition ent_of_write (w : twrite) (s : N) : ent :=
  match snd w with
  | Some v => mkEnt (fst w) s VValue v
  | None => mkEnt (fst w) s VTomb []
  end.

(* the overlay after a list of writes, starting at private seqno s0 (BaseTransaction::insert/remove) *)
Fixpoint overlay (ws : list twrite) (s0 : N) (acc : list ent) : list ent :=
  match ws with
  | [] => acc
  | w :: r => overlay r (s0 + 1) (mem_insert (ent_of_write w s0) acc)
  end.

(* reference semantics *)
Fixpoint last_write (ws : list twrite) (k : bytes) (acc : option (option bytes)) : option (option bytes) :=
  match ws with
  | [] => acc
  | w :: r => last_write r k (if list_eqb (fst w) k then Some (snd w) else acc)
  end.

Definition read_over (o : list ent) (k : bytes) : option (option bytes) :=
  match newest k TWO64 o with
  | Some e => Some (if is_tomb e then None else Some (ev e))
  | None => None
  end.

Lemma list_eqb_sym a b : list_eqb a b = list_eqb b a.
Proof.
  revert b; induction a as [|x a IH]; intros [|y b]; cbn; try reflexivity.
  rewrite IH, N.eqb_sym. reflexivity.
Qed.

Definition all_below (s : N) (l : list ent) : Prop := forall e, In e l -> es e < s.

Lemma all_below_insert s e l : all_below s l -> es e = s -> all_below (s + 1) (mem_insert e l).
Proof.
  intros H E x [<-|Hx]; [lia|]. apply filter_In in Hx as [Hx _]. specialize (H x Hx). lia.
Qed.

Lemma newest_insert_fresh e l k I : all_below (es e) l -> es e < I ->
  newest k I (mem_insert e l) = if list_eqb (ek e) k then Some e else newest k I l.
Proof. intros AB. apply newest_insert_le. intros y Iy. specialize (AB y Iy). lia. Qed.

(* the write path inserts with a seqno drawn after every seqno in the tree: the point read of the written
   key returns the written value (or absence for a tombstone), every other key is untouched *)
Theorem append_point_read e a k I :
  all_below (es e) a -> es e < I ->
  value_of (newest k I (mem_insert e a)) =
    if list_eqb (ek e) k then (if is_tomb e then None else Some (ev e)) else value_of (newest k I a).
Proof. intros AB LT. rewrite newest_insert_fresh by assumption. destruct (list_eqb (ek e) k); reflexivity. Qed.

Lemma read_over_insert e l k : all_below (es e) l -> es e < TWO64 ->
  read_over (mem_insert e l) k =
    if list_eqb (ek e) k then Some (if is_tomb e then None else Some (ev e)) else read_over l k.
Proof. intros AB LT. unfold read_over. rewrite newest_insert_fresh by assumption. destruct (list_eqb (ek e) k); reflexivity. Qed.

(* read-your-writes / last write wins, for ANY list of in-transaction writes *)
Theorem overlay_reads ws : forall s0 acc k,
  all_below s0 acc -> s0 + N.of_nat (length ws) < TWO64 ->
  read_over (overlay ws s0 acc) k = last_write ws k (read_over acc k).
Proof.
  induction ws as [|w r IH]; intros s0 acc k AB LT; cbn [overlay last_write]; [reflexivity|].
  cbn [length] in LT. assert (E : es (ent_of_write w s0) = s0) by (destruct w as [kk [v|]]; reflexivity).
  rewrite IH; [|apply all_below_insert; assumption|lia].
  f_equal. rewrite read_over_insert; [|rewrite E; exact AB|lia].
  destruct w as [kk [v|]]; reflexivity.
Qed.

(* a transaction's point read: own writes first, then the snapshot *)
Definition tx_view (ws : list twrite) (snap : bytes -> option bytes) (k : bytes) : option bytes :=
  match last_write ws k None with
  | Some r => r
  | None => snap k
  end.

Corollary tx_get_spec ws k snapv :
  TXBASE + N.of_nat (length ws) < TWO64 ->
  (match read_over (overlay ws TXBASE []) k with Some r => r | None => snapv end)
  = tx_view ws (fun _ => snapv) k.
Proof.
  intros LT. unfold tx_view. rewrite overlay_reads; [reflexivity| |exact LT]. intros e [].
Qed.

(* commit submits, per key, exactly the final write (value or tombstone), nothing else *)
Theorem commit_items_complete id o k e : newest k TWO64 o = Some e ->
  In {| ri_ks := id; ri_key := k; ri_value := ev e; ri_vt := et e |} (commit_items_of id o).
Proof. intros N. apply in_per_key. exists k, e. split; [exact N|now left]. Qed.

Theorem commit_items_sound id o it : In it (commit_items_of id o) ->
  exists e, newest (ri_key it) TWO64 o = Some e /\ ri_value it = ev e /\ ri_vt it = et e /\ ri_ks it = id.
Proof. intros H. apply in_per_key in H as (k & e & N & [<-|[]]). cbn. eauto. Qed.

Lemma alookup_aset_same {A} k (a : A) l : alookup k (aset k a l) = Some a.
Proof. unfold aset. cbn. now rewrite N.eqb_refl. Qed.
Lemma alookup_aremove_other {A} k j (l : list (N * A)) : j <> k -> alookup j (aremove k l) = alookup j l.
Proof.
  intros NE. induction l as [|[x a] r IH]; cbn; [reflexivity|].
  destruct (N.eqb_spec x k) as [->|NK].
  - destruct (N.eqb_spec k j); [congruence|]. exact IH.
  - cbn. destruct (x =? j); [reflexivity|exact IH].
Qed.

(* the interpreter's transaction write is one overlay step *)
Theorem tx_write_step x id k v vt tr :
  over_of (tx_write x id k v vt tr) id = mem_insert (mkEnt k (tx_seq x) vt v) (over_of x id) /\
  tx_seq (tx_write x id k v vt tr) = tx_seq x + 1 /\
  tx_instant (tx_write x id k v vt tr) = tx_instant x /\
  forall j, j <> id -> over_of (tx_write x id k v vt tr) j = over_of x j.
Proof.
  unfold tx_write, over_of. cbn [tx_over tx_seq tx_instant]. rewrite alookup_aset_same.
  repeat split. intros j NE. unfold aset. cbn [alookup]. destruct (N.eqb_spec id j); [congruence|].
  rewrite alookup_aremove_other by exact NE. reflexivity.
Qed.
