(* FrozenP.v — C05 at the level of the database model: the reads of a live view (snapshot, read transaction, iterator: an
   instant registered in the snapshot tracker) are unchanged by every operation of the database model, major compaction
   with any filter included, and the view stays usable.  Both facts are checked on the primitive updates of ReachP.v
   ([prim_frozen], [prim_VInv]). *)
From FJ Require Import Db LsmP TrackerP DbP OrderP DbOrderP ReachP RefineP.

(* what a view at instant i reads in the keyspace registered under id *)
Definition vreads (i : N) (kss : list kspace) (id : N) (k : bytes) :=
  option_map (fun ks => reads (k_tree ks) k i) (kfind kss id).

(* the state a live view needs: tracker invariant for the list of live instants, visible <= next seqno *)
Definition VInv (d : db) (live : list N) : Prop := Inv (d_trk d) live /\ vis_le_seq d.

Lemma ids_of d ks : DInv d -> In ks (d_kss d) -> ids_ok (k_tree ks).
Proof. intros H I. exact (ti_ids _ (proj1 (H ks I))). Qed.

(* a map that keeps every id and, at i, the reads of every keyspace a lookup finds *)
Lemma vreads_map i f kss : (forall x, k_id (f x) = k_id x) ->
  (forall x, kfind kss (k_id x) = Some x -> forall k, reads (k_tree (f x)) k i = reads (k_tree x) k i) ->
  forall id k, vreads i (map f kss) id k = vreads i kss id k.
Proof.
  intros F R id k. unfold vreads. rewrite kfind_map by exact F. destruct (kfind kss id) as [x|] eqn:K; [|reflexivity].
  cbn [option_map]. f_equal. apply R. rewrite (proj2 (kfind_some _ _ _ K)). exact K.
Qed.

Lemma vreads_apply_item i s kss it id k : i <= s -> vreads i (apply_item s kss it) id k = vreads i kss id k.
Proof.
  intros L. apply vreads_map; intros x; destruct (k_id x =? ri_ks it); try reflexivity. intros _ k0. apply append_frozen, L.
Qed.
Lemma vreads_fold i s mi : i <= s -> forall kss id k, vreads i (fold_left (apply_item s) mi kss) id k = vreads i kss id k.
Proof. intros L. induction mi as [|it r IH]; intros kss id k; cbn [fold_left]; [reflexivity|]. rewrite IH. apply vreads_apply_item, L. Qed.

Lemma ks_of_id d id ks : ks_of d id = Some ks -> ks_of d (k_id ks) = Some ks.
Proof. intros K. destruct (kfind_some _ _ _ K) as [_ E]. rewrite E. exact K. Qed.

Lemma vreads_set i d n trk id0 ks ks' : ks_of d id0 = Some ks -> k_id ks' = k_id ks ->
  (forall k, reads (k_tree ks') k i = reads (k_tree ks) k i) ->
  forall id k, vreads i (d_kss (upd d n trk (set_ks d ks'))) id k = vreads i (d_kss d) id k.
Proof.
  intros K E R. apply vreads_map; intros x; destruct (N.eqb_spec (k_id x) (k_id ks')) as [Ex|]; try reflexivity; [congruence|].
  rewrite Ex, E, <- ks_of_kfind, (ks_of_id _ _ _ K). intros [= <-]. exact R.
Qed.

(* a tree operation with parameters that are right for a reader at i, applied to one keyspace *)
Lemma set_tree_frozen i d n trk id0 ks o : DInv d -> ks_of d id0 = Some ks -> op_ok i o ->
  forall id k, vreads i (d_kss (set_tree d n trk ks (apply_top (k_tree ks) o))) id k = vreads i (d_kss d) id k.
Proof.
  intros DI K OK. apply (vreads_set i d _ _ id0 ks); [exact K|reflexivity|]. intros k.
  apply apply_frozen; [exact (ids_of d ks DI (ks_of_in _ _ _ K))|exact OK].
Qed.

Lemma upgrade_ok d ks o i : upgrade_op d ks o -> i <= d_seqno d -> W_of d <= i -> op_ok i o.
Proof. destruct o; cbn; try contradiction; intros U; decompose [and or] U; subst; auto using N.le_0_l. Qed.

Lemma prim_VInv d m d' live : prim d m d' -> VInv d live -> VInv d' live.
Proof.
  intros P [IT VS]. unfold VInv, vis_le_seq in *. destruct P; try (split; assumption).
  - (* maintenance *) split; [apply inv_gc, inv_pullup, IT|]. cbn. unfold tr_pullup. destruct (tdata (d_trk d)); exact VS.
  - (* install *) split; [apply inv_set_visible, IT|cbn; clear -VS; lia].
  - (* commit *) split; [apply inv_publish, IT|cbn; lia].
  - (* clear record *) split; [exact IT|cbn; lia].
  - (* publish *) split; [apply inv_publish, IT|cbn; lia].
  - (* tracker gc *) split; [apply inv_gc, IT|exact VS].
  - (* new keyspace *) split; [apply inv_set_visible, IT|cbn; lia].
  - (* unregister *) split; [apply inv_set_visible, inv_set_visible, IT|cbn; lia].
Qed.

Lemma prim_next_id d m d' : prim d m d' -> d_next_id d <= d_next_id d'.
Proof. intros P. destruct P; try apply N.le_refl. apply N.le_add_r. Qed.

(* maintenance creates no keyspace; the other primitives leave alone every id below the next one to be given out *)
Lemma prim_frozen d m d' live i id : prim d m d' -> DInv d -> VInv d live -> In i live -> (m = false -> id < d_next_id d) ->
  forall k, vreads i (d_kss d') id k = vreads i (d_kss d) id k.
Proof.
  intros P DI [IT VS] Hi L k. destruct (params_ok d live i IT VS Hi) as [LS LW].
  destruct P as [m q fq|m|m|m id0 ks K|m|m id0 ks o K U M|ji mi|cl|s Ls| |hs sn its txs occ|name B|name mid|id0 ks K]; try reflexivity.
  - (* rotate *) exact (set_tree_frozen i d _ _ id0 ks TRotate DI K Logic.I id k).
  - (* maintenance *) apply vreads_map; intros x; destruct (existsb _ _); try reflexivity. intros Kx k0.
    apply maintenance_frozen.
    exact (N.le_trans _ _ _ (inv_wm_live _ _ (inv_gc _ _ (inv_pullup _ _ IT)) i Hi) (N.le_sub_l i 1)).
  - (* install *) exact (set_tree_frozen i d _ _ id0 ks o DI K (upgrade_ok d ks o i U LS LW) id k).
  - (* commit *) apply vreads_fold, LS.
  - (* new keyspace *) specialize (L eq_refl). unfold vreads, kfind. cbn [new_ks d_kss upd_reg find k_id].
    pose proof (N.lt_neq _ _ L) as NE. destruct (N.eqb_spec (d_next_id d) id); [congruence|].
    apply (f_equal (option_map _)), kfind_filter_ne, NE.
  - (* mark deleted *) apply (vreads_set i d _ _ id0 ks); [exact K|reflexivity|reflexivity].
Qed.

Theorem reach_VInv m d d' live : reach m d d' -> VInv d live -> VInv d' live.
Proof. apply (reach_inv m (fun x => VInv x live)). intros a b. apply prim_VInv. Qed.

Theorem reach_frozen m d d' live i id : reach m d d' -> DInv d -> VInv d live -> In i live -> (m = false -> id < d_next_id d) ->
  forall k, vreads i (d_kss d') id k = vreads i (d_kss d) id k.
Proof.
  intros R DI V Hi L.
  apply (reach_inv m (fun x => DInv x /\ VInv x live /\ (m = false -> id < d_next_id x) /\
                               forall k, vreads i (d_kss x) id k = vreads i (d_kss d) id k) ) with (d := d); [|exact R|auto].
  intros a b P (DA & VA & LA & EA). split; [exact (prim_dinv a m b P DA)|]. split; [exact (prim_VInv a m b live P VA)|]. split.
  - intros E. exact (N.lt_le_trans _ _ _ (LA E) (prim_next_id a m b P)).
  - intros k. rewrite (prim_frozen a m b live i id P DA VA Hi LA). apply EA.
Qed.

Lemma do_rotate_frozen d id1 live i : DInv d -> VInv d live -> In i live ->
  forall id k, vreads i (d_kss (fst (do_rotate d id1))) id k = vreads i (d_kss d) id k.
Proof. intros DI V Hi id. apply (reach_frozen true d _ live i id (rotate_reach true d id1) DI V Hi). discriminate. Qed.
Lemma do_step_frozen d live i : DInv d -> VInv d live -> In i live ->
  forall id k, vreads i (d_kss (fst (do_step d))) id k = vreads i (d_kss d) id k.
Proof. intros DI V Hi id. apply (reach_frozen true d _ live i id (step_reach true d) DI V Hi). discriminate. Qed.
Lemma do_drain_frozen f : forall d n live i, DInv d -> VInv d live -> In i live ->
  forall id k, vreads i (d_kss (fst (do_drain f d n))) id k = vreads i (d_kss d) id k.
Proof. intros d n live i DI V Hi id. apply (reach_frozen true d _ live i id (drain_reach true f d n) DI V Hi). discriminate. Qed.

Lemma VInv_do_rotate d id1 live : VInv d live -> VInv (fst (do_rotate d id1)) live.
Proof. apply (reach_VInv true), rotate_reach. Qed.
Lemma VInv_do_step d live : VInv d live -> VInv (fst (do_step d)) live.
Proof. apply (reach_VInv true), step_reach. Qed.
Lemma VInv_do_drain f : forall d n live, VInv d live -> VInv (fst (do_drain f d n)) live.
Proof. intros d n live. apply (reach_VInv true), drain_reach. Qed.

Lemma UQ_below d id : UQ d -> kfind (d_kss d) id <> None -> id < d_next_id d.
Proof. intros [_ B] H. destruct (kfind (d_kss d) id) as [ks|] eqn:K; [|congruence]. destruct (kfind_some _ _ _ K) as [I <-]. apply B, I. Qed.

(* every program: a view that is live throughout reads the same at the end as at the beginning, in every keyspace that
   existed when it was opened; and those reads are defined (the view never fails) *)
Theorem wrun_frozen ops : forall d live i, DInv d -> UQ d -> VInv d live -> In i live ->
  forall id k, kfind (d_kss d) id <> None -> vreads i (d_kss (fold_left wstep ops d)) id k = vreads i (d_kss d) id k.
Proof.
  intros d live i DI U V Hi id k EX. apply (reach_frozen false d _ live i id (wrun_reach ops d) DI V Hi). intros _. exact (UQ_below d id U EX).
Qed.

Lemma run_VInv ops : forall d live, VInv d live -> VInv (fold_left wstep ops d) live.
Proof. intros d live. apply (reach_VInv false), wrun_reach. Qed.

Theorem wstep_frozen d o live i : DInv d -> UQ d -> VInv d live -> In i live ->
  forall id k, kfind (d_kss d) id <> None -> vreads i (d_kss (wstep d o)) id k = vreads i (d_kss d) id k.
Proof. exact (wrun_frozen [o] d live i). Qed.

Theorem wstep_VInv d o live : VInv d live -> VInv (wstep d o) live.
Proof. exact (run_VInv [o] d live). Qed.

Definition open_view (d : db) : db := upd d (d_seqno d) (fst (tr_open (d_trk d))) (d_kss d).

Lemma VInv_open d live : VInv d live -> VInv (open_view d) (visible (d_trk d) :: live).
Proof.
  intros [IT VS]. split; [exact (inv_step (d_trk d, live) TOpen IT)|]. unfold vis_le_seq, open_view in *. cbn. exact VS.
Qed.
Lemma VInv_init mode filters : VInv (db_init mode filters) [].
Proof. split; [apply inv_init|unfold vis_le_seq; cbn; lia]. Qed.

Theorem snapshot_frozen mode filters p1 p2 id k :
  let d1 := fold_left wstep p1 (db_init mode filters) in
  let i := visible (d_trk d1) in
  let d2 := fold_left wstep p2 (open_view d1) in
  kfind (d_kss d1) id <> None -> vreads i (d_kss d2) id k = vreads i (d_kss d1) id k.
Proof.
  intros d1 i d2 EX. apply (reach_frozen false (open_view d1) d2 [i] i id (wrun_reach p2 _)); [| |now left|].
  - apply (dinv_ext d1); [reflexivity|cbn; lia|apply wrun_dinv, dinv_init].
  - apply (VInv_open d1 []), run_VInv, VInv_init.
  - intros _. exact (UQ_below d1 id (run_UQ p1 _ (UQ_init mode filters)) EX).
Qed.
