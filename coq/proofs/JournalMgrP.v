(* JournalMgrP.v — C10: a journal file is unlinked only when nothing in it is still needed; oldest first; back to one *)
From FJ Require Import JournalMgr.
From Coq Require Import Sorted.

Lemma fold_max_ge (l : list N) : forall a x, In x (a :: l) -> x <= fold_left N.max l a.
Proof.
  induction l as [|y r IH]; intros a x H; cbn [fold_left]; [destruct H as [<-|[]]; reflexivity|].
  destruct H as [<-|[<-|H]]; [| |apply IH; now right].
  - exact (N.le_trans _ _ _ (N.le_max_l _ _) (IH _ _ (or_introl eq_refl))).
  - exact (N.le_trans _ _ _ (N.le_max_r _ _) (IH _ _ (or_introl eq_refl))).
Qed.
Lemma fold_max_in (l : list N) : forall a, In (fold_left N.max l a) (a :: l).
Proof.
  induction l as [|y r IH]; intros a; cbn [fold_left]; [now left|].
  destruct (IH (N.max a y)) as [E|I]; [|right; now right]. rewrite <- E.
  destruct (N.max_spec a y) as [[_ ->]|[_ ->]]; [right; now left|now left].
Qed.
Lemma max_list_ge l m : max_list l = Some m -> forall x, In x l -> x <= m.
Proof. destruct l as [|a r]; [discriminate|]. intros E. injection E as <-. apply fold_max_ge. Qed.
Lemma max_list_in l m : max_list l = Some m -> In m l.
Proof. destruct l as [|a r]; [discriminate|]. intros E. injection E as <-. apply fold_max_in. Qed.
Lemma max_list_some l x : In x l -> exists m, max_list l = Some m.
Proof. destruct l; [intros []|eexists; reflexivity]. Qed.

Lemma upd_same {A} (f : N -> A) k v : upd f k v k = v.
Proof. unfold upd. now rewrite N.eqb_refl. Qed.
Lemma upd_other {A} (f : N -> A) k v x : x <> k -> upd f k v x = f x.
Proof. unfold upd. intros H. destruct (N.eqb_spec x k); [contradiction|reflexivity]. Qed.

Lemma sorted_app_le l1 : forall l2 a b, StronglySorted N.le (l1 ++ l2) -> In a l1 -> In b l2 -> a <= b.
Proof.
  induction l1 as [|x r IH]; intros l2 a b S Ia Ib; [destruct Ia|]. apply StronglySorted_inv in S as [S F].
  destruct Ia as [<-|Ia]; [|exact (IH _ _ _ S Ia Ib)]. rewrite Forall_forall in F. apply F, in_or_app. now right.
Qed.
Lemma sorted_app_repeat l q c : StronglySorted N.le l -> (forall x, In x l -> x <= q) -> StronglySorted N.le (l ++ repeat q c).
Proof.
  induction 1 as [|x r S IH F]; intros B; cbn [app].
  - induction c; constructor; [assumption|]. apply Forall_forall. intros x H. apply repeat_spec in H. now subst.
  - constructor; [apply IH; intros y I; apply B; now right|]. apply Forall_app. split; [exact F|].
    apply Forall_forall. intros y H. apply repeat_spec in H. subst. apply B. now left.
Qed.

(* the seqnos applied to keyspace k, oldest first: those flushed, then those in sealed memtables, then those in the active
   one.  A write appends; rotation and flush only move the two cuts. *)
Definition unflushed (s : jm) (k : N) : list N := m_sld s k ++ m_act s k.
Definition hist (s : jm) (k : N) : list N := m_flushed s k ++ unflushed s k.
Definition applied (s : jm) (k x : N) : Prop := In x (hist s k).

Definition wkeys (s : jm) (ks : list N) : list N :=
  filter (fun k => existsb (N.eqb k) (m_kss s) && negb (m_del s k)) ks.

Lemma fold_bump ks q : forall (f : N -> list N) k,
  fold_left (fun f k => upd f k (f k ++ [q])) ks f k = f k ++ repeat q (count_occ N.eq_dec ks k).
Proof.
  induction ks as [|a r IH]; intros f k; cbn [fold_left count_occ]; [now rewrite app_nil_r|]. rewrite IH.
  destruct (N.eq_dec a k) as [->|NE]; [now rewrite upd_same, <- app_assoc|now rewrite upd_other by congruence].
Qed.

Lemma in_repeat_count (q : N) (l : list N) k x : In x (repeat q (count_occ N.eq_dec l k)) <-> x = q /\ In k l.
Proof.
  rewrite (count_occ_In N.eq_dec l k). destruct (count_occ N.eq_dec l k) as [|c]; cbn [repeat In]; [split; [intros []|lia]|].
  split; [intros H; split; [|lia]|intros [-> _]; now left]. destruct H as [<-|H]; [reflexivity|exact (repeat_spec _ _ _ H)].
Qed.

Lemma hist_step s o k :
  hist (jstep s o) k =
  hist s k ++ match o with JWrite ks => repeat (m_next s) (count_occ N.eq_dec (wkeys s ks) k) | _ => [] end.
Proof.
  unfold hist, unflushed. destruct o as [k0|ks|k0|k0| | |k0|k0 x0]; cbn [jstep set_mem m_flushed m_sld m_act].
  - destruct (existsb _ _); cbn; now rewrite app_nil_r.
  - now rewrite fold_bump, !app_assoc.
  - unfold upd. destruct (N.eqb_spec k k0) as [->|NE]; now rewrite !app_nil_r.
  - unfold upd. destruct (N.eqb_spec k k0) as [->|NE]; now rewrite app_nil_r, <- ?app_assoc.
  - now rewrite app_nil_r.
  - destruct (evict_loop _ _). cbn. now rewrite app_nil_r.
  - now rewrite app_nil_r.
  - now rewrite app_nil_r.
Qed.

Lemma in_wkeys s ks k : In k (wkeys s ks) -> In k (m_kss s).
Proof.
  intros H. apply filter_In in H as [_ H]. apply andb_prop in H as [H _].
  apply existsb_exists in H as (y & Iy & Ey). apply N.eqb_eq in Ey. now subst.
Qed.

Lemma applied_step s o k x : applied (jstep s o) k x <->
  applied s k x \/ exists ks, o = JWrite ks /\ x = m_next s /\ In k (wkeys s ks).
Proof.
  unfold applied. rewrite hist_step. split; intros H.
  - apply in_app_or in H as [H|H]; [now left|right].
    destruct o as [|ks| | | | | |]; try destruct H. exists ks. split; [reflexivity|]. apply in_repeat_count, H.
  - apply in_or_app. destruct H as [H|(ks & -> & H)]; [now left|right]. apply in_repeat_count, H.
Qed.

Definition durable (s : jm) (k x : N) : Prop := In x (m_flushed s k) \/ m_del s k = true.

(* a step only adds: to the counter, the keyspaces, the histories, the flushed seqnos, the deleted flags *)
Record grows (s s' : jm) : Prop := {
  g_next : m_next s <= m_next s';
  g_kss : forall k, In k (m_kss s) -> In k (m_kss s');
  g_applied : forall k x, applied s k x -> applied s' k x;
  g_flushed : forall k x, In x (m_flushed s k) -> In x (m_flushed s' k);
  g_del : forall k, m_del s k = true -> m_del s' k = true
}.

Lemma jstep_grows s o : grows s (jstep s o).
Proof.
  assert (A : forall k x, applied s k x -> applied (jstep s o) k x) by (intros k x H; apply applied_step; now left).
  destruct o as [k0|ks|k0|k0| | |k0|k0 x0]; cbn [jstep] in *.
  - destruct (existsb _ _); [now split|]. split; cbn [m_kss]; auto using in_cons. reflexivity.
  - split; auto. apply N.le_add_r.
  - now split.
  - split; cbn [set_mem m_flushed]; auto; [reflexivity|]. intros k x. unfold upd.
    destruct (N.eqb_spec k k0) as [->|]; [|exact (fun H => H)]. intros H. apply in_or_app. now left.
  - now split.
  - destruct (evict_loop _ _). now split.
  - split; cbn [m_del]; auto; [reflexivity|]. intros k. unfold upd. now destruct (k =? k0).
  - now split.
Qed.

Record MInv (s : jm) : Prop := {
  mi_sorted : forall k, StronglySorted N.le (hist s k);
  mi_fresh : forall k x, applied s k x -> x < m_next s;
  mi_known : forall k x, applied s k x -> In k (m_kss s);      (* build_seqno_map walks m_kss *)
  mi_tab : forall k x, In x (m_tab s k) -> In x (m_flushed s k)
}.

Lemma minv_init : MInv jinit.
Proof. split; cbn; try (intros; contradiction). constructor. Qed.

Lemma minv_step s o : MInv s -> MInv (jstep s o).
Proof.
  intros [S F K T]. pose proof (jstep_grows s o) as G. split.
  - intros k. rewrite hist_step. destruct o; rewrite ?app_nil_r; try apply S.
    apply sorted_app_repeat; [apply S|]. intros x H. apply N.lt_le_incl, (F k x H).
  - intros k x H. apply applied_step in H as [H|(ks & -> & -> & _)]; [exact (N.lt_le_trans _ _ _ (F k x H) (g_next _ _ G))|].
    apply N.lt_add_pos_r. reflexivity.
  - intros k x H. apply (g_kss _ _ G). apply applied_step in H as [H|(ks & _ & _ & H)]; [exact (K k x H)|exact (in_wkeys s ks k H)].
  - intros k x. destruct o as [k0|ks|k0|k0| | |k0|k0 x0]; cbn [jstep set_mem m_tab m_flushed]; try apply T.
    + destruct (existsb _ _); apply T.
    + unfold upd. destruct (k =? k0); [|apply T]. intros H. apply in_or_app. apply in_app_or in H as [H|H]; [left; exact (T k0 x H)|now right].
    + destruct (evict_loop _ _). apply T.
    + unfold upd. destruct (N.eqb_spec k k0) as [->|]; [|apply T]. intros H. apply filter_In in H. exact (T k0 x (proj1 H)).
Qed.

(* a sealed journal: every record is applied, and flushed or at most a watermark of its keyspace; the watermarks are
   applied seqnos *)
Record item_ok (s : jm) (it : jitem) : Prop := {
  io_recs : forall k x, In (k, x) (j_recs it) ->
             applied s k x /\ (In x (m_flushed s k) \/ exists l, In (k, l) (j_wms it) /\ x <= l);
  io_wms : forall k l, In (k, l) (j_wms it) -> applied s k l
}.

(* the journal side; all of it is kept when the memtable side grows ([jinv_grows]) *)
Record JInv (s : jm) : Prop := {
  ji_active : forall k x, In (k, x) (m_active s) -> applied s k x;
  ji_sealed : Forall (item_ok s) (m_sealed s);
  ji_evicted : forall k x, In (k, x) (m_evicted s) -> durable s k x
}.

Lemma jinv_init : JInv jinit.
Proof. split; cbn; [intros k x []|constructor|intros k x []]. Qed.

Lemma item_ok_grows s s' it : grows s s' -> item_ok s it -> item_ok s' it.
Proof.
  intros [_ _ GA GF _] [R W]. split.
  - intros k x H. destruct (R k x H) as [P D]. split; [apply GA, P|]. destruct D as [D|D]; [left; apply GF, D|now right].
  - intros k l H. apply GA, (W k l H).
Qed.

Lemma jinv_grows s s' : grows s s' -> m_sealed s' = m_sealed s -> m_evicted s' = m_evicted s ->
  (forall k x, In (k, x) (m_active s') -> In (k, x) (m_active s) \/ applied s' k x) -> JInv s -> JInv s'.
Proof.
  intros G ES EE EA [A S E]. split; rewrite ?ES, ?EE.
  - intros k x H. destruct (EA k x H) as [H'|H']; [apply (g_applied _ _ G), A, H'|exact H'].
  - exact (Forall_impl _ (fun it => item_ok_grows s s' it G) S).
  - intros k x H. destruct (E k x H) as [D|D]; [left; apply (g_flushed _ _ G), D|right; apply (g_del _ _ G), D].
Qed.

Lemma seqno_map_in s k l : In (k, l) (build_seqno_map s) <-> In k (m_kss s) /\ mem_high s k = Some l.
Proof.
  unfold build_seqno_map. rewrite in_flat_map. split.
  - intros (k' & K & I). destruct (mem_high s k') eqn:E; [|contradiction]. destruct I as [I|[]]. injection I as -> ->. now split.
  - intros [K E]. exists k. split; [exact K|]. rewrite E. now left.
Qed.

(* what sealing writes down: the watermarks of build_seqno_map cover the records of the active journal *)
Lemma seal_ok s : MInv s -> JInv s -> item_ok s {| j_recs := m_active s; j_wms := build_seqno_map s |}.
Proof.
  intros M J. split; cbn [j_recs j_wms].
  - intros k x R. pose proof (ji_active s J k x R) as P. split; [exact P|].
    pose proof (mi_known s M k x P) as K. apply in_app_or in P as [P|P]; [now left|right].
    destruct (max_list_some _ _ P) as [m E]. exists m. split; [apply seqno_map_in; now split|exact (max_list_ge _ _ E x P)].
  - intros k l R. apply seqno_map_in in R as [_ R]. apply max_list_in in R. apply in_or_app. now right.
Qed.

Lemma evict_loop_spec s items : forall rest ev, evict_loop s items = (rest, ev) ->
  exists pre, items = pre ++ rest /\ Forall (fun it => can_evict s it = true) pre /\ ev = flat_map j_recs pre /\
              match rest with [] => True | it :: _ => can_evict s it = false end.
Proof.
  induction items as [|it r IH]; intros rest ev H; cbn in H.
  - injection H as <- <-. exists []. repeat split; constructor.
  - destruct (can_evict s it) eqn:C.
    + destruct (evict_loop s r) as [r' ev'] eqn:L. injection H as <- <-.
      destruct (IH r' ev' eq_refl) as (pre & -> & E2 & -> & E4). exists (it :: pre). repeat split; auto.
    + injection H as <- <-. exists []. repeat split; [constructor|exact C].
Qed.

(* the reason eviction is safe: a satisfied watermark l of keyspace k lies at or below a flushed seqno p, so a record
   x <= l of k that were still in a memtable would lie at or above p, hence be p *)
Lemma evictable_durable s it : MInv s -> item_ok s it -> can_evict s it = true ->
  forall k x, In (k, x) (j_recs it) -> durable s k x.
Proof.
  intros M I C k x R. destruct (io_recs s it I k x R) as [P [D|(l & Wl & Le)]]; [now left|].
  unfold can_evict in C. rewrite forallb_forall in C. specialize (C (k, l) Wl). unfold wm_ok in C. cbn [fst snd] in C.
  destruct (m_del s k) eqn:D; [now right|]. left. cbn in C.
  destruct (persisted s k) as [p|] eqn:Pk; [|discriminate]. apply N.leb_le in C.
  pose proof (mi_tab s M k p (max_list_in _ _ Pk)) as Pin.
  apply in_app_or in P as [P|P]; [exact P|].
  pose proof (sorted_app_le _ _ p x (mi_sorted s M k) Pin P). now replace x with p by lia.
Qed.

Lemma jinv_step s o : MInv s -> JInv s -> JInv (jstep s o).
Proof.
  intros M J. pose proof (jstep_grows s o) as G.
  (* rotation, flush, delete and compaction leave the journal files alone *)
  destruct o as [k0|ks|k0|k0| | |k0|k0 x0]; try (apply (jinv_grows s); [exact G|reflexivity|reflexivity|intros k x H; left; exact H|exact J]).
  - apply (jinv_grows s); [exact G|..|exact J]; cbn [jstep]; destruct (existsb _ _); auto.
  - apply (jinv_grows s); [exact G|reflexivity|reflexivity| |exact J]. intros k x H. cbn [jstep m_active] in H.
    apply in_app_or in H as [H|H]; [now left|right]. apply in_map_iff in H as (k' & E & H). injection E as -> <-.
    apply applied_step. right. exists ks. auto.
  - pose proof (seal_ok s M J) as O. destruct J as [A S E].
    split; cbn [jstep m_active m_sealed m_evicted]; [intros k x []| |exact E].
    apply (Forall_impl _ (fun it => item_ok_grows _ _ it G)), Forall_app. split; [exact S|]. constructor; [exact O|constructor].
  - cbn [jstep] in *. destruct (evict_loop s (m_sealed s)) as [rest ev] eqn:L in *.
    destruct (evict_loop_spec s _ _ _ L) as (pre & E1 & E2 & -> & _).
    destruct J as [A S E]. rewrite E1 in S. apply Forall_app in S as [Sp Sr].
    split; cbn [m_active m_sealed m_evicted]; [exact A|exact (Forall_impl _ (fun it => item_ok_grows _ _ it G) Sr)|].
    intros k x I. apply in_app_or in I as [I|I]; [exact (E k x I)|]. apply in_flat_map in I as (it & Ip & R).
    rewrite Forall_forall in E2, Sp. exact (evictable_durable s it M (Sp it Ip) (E2 it Ip) k x R).
Qed.

Lemma run_inv ops : forall s, MInv s -> JInv s -> MInv (fold_left jstep ops s) /\ JInv (fold_left jstep ops s).
Proof.
  induction ops as [|o r IH]; intros s M J; cbn [fold_left]; [now split|].
  apply IH; [apply minv_step, M|apply jinv_step; assumption].
Qed.

(* every record of every journal file that was ever unlinked had reached a table of its keyspace (or the keyspace was
   deleted), for every interleaving of writes, memtable rotations, flushes, journal sealing, maintenance, deletes and
   compactions *)
Theorem evicted_only_when_durable ops k x :
  In (k, x) (m_evicted (jrun ops)) -> In x (m_flushed (jrun ops) k) \/ m_del (jrun ops) k = true.
Proof. exact (ji_evicted _ (proj2 (run_inv ops jinit minv_init jinv_init)) k x). Qed.

(* maintenance reclaims a prefix of the sealed journals: oldest first, never out of order *)
Theorem maintenance_oldest_first s :
  exists pre, m_sealed s = pre ++ m_sealed (jstep s JMaint) /\
              m_evicted (jstep s JMaint) = m_evicted s ++ flat_map j_recs pre.
Proof.
  cbn [jstep]. destruct (evict_loop s (m_sealed s)) as [rest ev] eqn:L.
  destruct (evict_loop_spec s _ _ _ L) as (pre & E1 & _ & -> & _). exists pre. split; [exact E1|reflexivity].
Qed.

(* once every keyspace is flushed (no unflushed memtable data) and no compaction has dropped the newest flushed item,
   maintenance brings the number of journal files back to one *)
Definition all_flushed (s : jm) : Prop := forall k, m_act s k = [] /\ m_sld s k = [].
Definition newest_kept (s : jm) : Prop := forall k m, max_list (m_flushed s k) = Some m -> In m (m_tab s k).

(* then every watermark is satisfied: it is a flushed seqno, so at most the newest one, which the tables still hold *)
Lemma all_evictable s it : item_ok s it -> all_flushed s -> newest_kept s -> can_evict s it = true.
Proof.
  intros I AF NK. apply forallb_forall. intros [k l] Wl. unfold wm_ok. cbn [fst snd].
  destruct (m_del s k); [reflexivity|]. cbn.
  pose proof (io_wms s it I k l Wl) as P. unfold applied, hist, unflushed in P.
  destruct (AF k) as [A1 A2]. rewrite A1, A2, !app_nil_r in P.
  destruct (max_list_some _ _ P) as [m Hm]. pose proof (NK k m Hm) as Tm.
  destruct (max_list_some _ _ Tm) as [p Hp]. unfold persisted. rewrite Hp. apply N.leb_le.
  exact (N.le_trans _ _ _ (max_list_ge _ _ Hm l P) (max_list_ge _ _ Hp m Tm)).
Qed.

Theorem back_to_one ops :
  all_flushed (jrun ops) -> newest_kept (jrun ops) -> journal_count (jstep (jrun ops) JMaint) = 1.
Proof.
  intros AF NK. destruct (run_inv ops jinit minv_init jinv_init) as [_ J]. fold (jrun ops) in J.
  unfold journal_count. cbn [jstep]. destruct (evict_loop _ _) as [rest ev] eqn:L.
  destruct (evict_loop_spec _ _ _ _ L) as (pre & E1 & _ & _ & E4). destruct rest as [|it r]; [reflexivity|].
  pose proof (ji_sealed _ J) as S. rewrite E1 in S. apply Forall_app in S as [_ S].
  rewrite (all_evictable _ it (Forall_inv S) AF NK) in E4. discriminate.
Qed.

(* non-vacuity: a run in which a lagging keyspace keeps the sealed journal alive, and a later flush lets it go *)
Definition c10_example : list jop :=
  [JCreate 1; JCreate 2; JWrite [1]; JWrite [2]; JWrite [1; 2]; JSeal; JRotate 1; JFlush 1; JMaint].
Lemma c10_example_runs :
  journal_count (jrun c10_example) = 2 /\ m_evicted (jrun c10_example) = [] /\
  journal_count (jrun (c10_example ++ [JRotate 2; JFlush 2; JMaint])) = 1 /\
  m_evicted (jrun (c10_example ++ [JRotate 2; JFlush 2; JMaint])) = [(1, 0); (2, 1); (1, 2); (2, 2)].
Proof. vm_compute. repeat split. Qed.
