(* ReachP.v — every operation of the database model is a finite composition of a few primitive updates of the state
   ([prim]).  The walk through the control flow of Db.v is done once, here ([wstep_reach], [delks_reach]); an invariant
   of the running database is then checked on the primitives and lifted by [reach_inv].  The maintenance that runs
   unasked (rotation, worker steps, drains) is composed of the primitives marked [true] alone ([unasked_reach]).        *)
From FJ Require Import Db LsmP OrderP DbOrderP.

(* what a version upgrade installs in keyspace [ks], with the seqno it draws: a flush (ingestion flushes without GC), a
   compaction with the keyspace's filter, a clear, or an ingested table over flushed memtables *)
Definition upgrade_op (d : db) (ks : kspace) (o : tree_op) : Prop :=
  match o with
  | TFlush W s => s = d_seqno d /\ (W = 0 \/ W = W_of d)
  | TCompact W s _ f => s = d_seqno d /\ W = W_of d /\ f = k_filter ks
  | TClear s => s = d_seqno d
  | TIngest g items => g = d_seqno d /\ (forall e, In e items -> es e = g) /\ disciplined (k_tree ks) o
  | _ => False
  end.
Definition flush_op (o : tree_op) : Prop := match o with TFlush _ _ => True | _ => False end.

Definition set_tree (d : db) (n : N) (trk : tracker) (ks : kspace) (t : tree) : db := upd d n trk (set_ks d (with_tree ks t)).
Definition install (d : db) (ks : kspace) (o : tree_op) : db :=
  set_tree d (d_seqno d + 1) (tr_set_visible (d_trk d) (d_seqno d + 1)) ks (apply_top (k_tree ks) o).

(* Keyspace::inner_rotate_memtable: tracker GC, then version-history maintenance of every registered keyspace *)
Definition rotate_maint (d : db) : db :=
  let trk := tr_gc (tr_pullup (d_trk d)) in
  upd d (d_seqno d) trk
      (map (fun k => if existsb (fun p => snd p =? k_id k) (d_map d)
                     then with_tree k (vh_maintenance (lowest_freed trk) (k_tree k)) else k) (d_kss d)).

(* a Clear record: journal append and seqno under the journal lock *)
Definition journal_clear (d : db) (cl : list N) : db :=
  upd (upd_journal d (d_active d ++ [mk_batch (d_seqno d) [] cl])) (d_seqno d + 1) (d_trk d) (d_kss d).

(* Database::keyspace under a new name: the next id, an empty tree, the filter the factory assigns to the name *)
Definition new_ks (d : db) (name : bytes) : db :=
  let id := d_next_id d in
  upd_reg (fst (draw_version d))
    ({| k_id := id; k_name := name; k_tree := tree_init; k_deleted := false; k_filter := filter_for d name |}
       :: filter (fun k => negb (k_id k =? id)) (d_kss d))
    ((name, id) :: d_map d) ((id, name) :: d_meta d) (id + 1)
    (id :: filter (fun x => negb (x =? id)) (d_dirs d)) (N.max (d_meta_seq d) (d_seqno d)).

(* delete_keyspace: two seqnos for the meta tree; the name and its meta row go *)
Definition unregister (d : db) (name : bytes) (mid : N) : db :=
  let s := d_seqno d + 1 in
  upd_reg (upd d (s + 1) (tr_set_visible (tr_set_visible (d_trk d) (s + 1)) s) (d_kss d))
          (d_kss d) (bremove name (d_map d)) (aremove mid (d_meta d)) (d_next_id d) (d_dirs d) (N.max (d_meta_seq d) s).
Definition mark_deleted (ks : kspace) : kspace :=
  {| k_id := k_id ks; k_name := k_name ks; k_tree := k_tree ks; k_deleted := true; k_filter := k_filter ks |}.

(* [prim d m d']: one primitive update; with [m = true] only those that rotation and worker steps are made of *)
Inductive prim (d : db) : bool -> db -> Prop :=
| p_queue m q fq : prim d m (upd_queue d q fq)
| p_seal m : prim d m (upd_sealed d [] (d_sealed d ++ [{| sj_batches := d_active d; sj_wm := build_wm d |}]))
| p_evict m : prim d m (journal_maintenance d)
| p_rotate m id ks : ks_of d id = Some ks -> prim d m (set_tree d (d_seqno d) (d_trk d) ks (fst (t_rotate (k_tree ks))))
| p_maint m : prim d m (rotate_maint d)
| p_install m id ks o : ks_of d id = Some ks -> upgrade_op d ks o -> (m = true -> flush_op o) -> prim d m (install d ks o)
| p_commit ji mi : prim d false (commit_batch d ji mi)
| p_record cl : prim d false (journal_clear d cl)
| p_publish s : s < d_seqno d -> prim d false (upd d (d_seqno d) (tr_publish (d_trk d) s) (d_kss d))
| p_gc : prim d false (upd d (d_seqno d) (tr_gc (d_trk d)) (d_kss d))
| p_views hs sn its txs occ : prim d false (upd_views d hs sn its txs occ)
| p_newks name : blookup name (d_map d) = None -> prim d false (new_ks d name)
| p_unreg name mid : prim d false (unregister d name mid)
| p_mark id ks : ks_of d id = Some ks -> prim d false (upd d (d_seqno d) (d_trk d) (set_ks d (mark_deleted ks))).

Inductive reach (m : bool) (d : db) : db -> Prop :=
| reach_refl : reach m d d
| reach_step d1 d2 : reach m d d1 -> prim d1 m d2 -> reach m d d2.

Lemma reach_trans m d1 d2 d3 : reach m d1 d2 -> reach m d2 d3 -> reach m d1 d3.
Proof. intros A B. induction B; [exact A|eapply reach_step; eassumption]. Qed.
Lemma reach_one m d d' : prim d m d' -> reach m d d'.
Proof. apply reach_step, reach_refl. Qed.

Theorem reach_inv m (A : db -> Prop) : (forall a b, prim a m b -> A a -> A b) -> forall d d', reach m d d' -> A d -> A d'.
Proof. intros S d d' R H. induction R; [exact H|eapply S; eassumption]. Qed.

Lemma rotate_reach m d id : reach m d (fst (do_rotate d id)).
Proof.
  unfold do_rotate. destruct (ks_of d id) as [ks|] eqn:K; [|apply reach_refl].
  destruct (t_rotate (k_tree ks)) as [t ok] eqn:R. destruct ok; [|apply reach_refl]. cbn [fst].
  replace t with (fst (t_rotate (k_tree ks))) by (rewrite R; reflexivity).
  eapply reach_step; [|apply p_evict]. eapply reach_step; [|apply p_maint].
  eapply reach_step; [|apply (p_queue _ m (d_queue d ++ [WFlush]) (d_flushq d ++ [id]))].
  exact (reach_one m d _ (p_rotate d m id ks K)).
Qed.

Lemma step_reach m d : reach m d (fst (do_step d)).
Proof.
  unfold do_step. destruct (d_queue d) as [|w q]; [apply reach_refl|].
  assert (R0 : reach m d (upd_queue d q (d_flushq d))) by apply reach_one, p_queue.
  destruct w as [id mid| |id]; [| |exact R0].
  - destruct (ks_of _ id) as [ks|]; [|exact R0]. destruct (_ =? _); [|exact R0]. cbn [fst].
    eapply reach_trans; [exact R0|apply rotate_reach].
  - destruct (d_flushq _) as [|id fq]; [exact R0|].
    match goal with |- context [maybe_seal ?X] => assert (R1 : reach m d (maybe_seal X)) end.
    { unfold maybe_seal. destruct (_ && _); [eapply reach_step; [|apply p_seal]|]; eapply reach_step; try exact R0; apply p_queue. }
    match goal with |- context [maybe_seal ?X] => set (d1 := maybe_seal X) in * end.
    destruct (ks_of d1 id) as [ks|] eqn:K; [|exact R1]. cbn [fst].
    eapply reach_step; [|apply p_evict]. eapply reach_step; [|apply p_queue].
    destruct (v_sealed (latest (k_tree ks))); [exact R1|].
    apply (reach_step m d d1 _ R1), (p_install d1 m id ks (TFlush (W_of d1) (d_seqno d1)) K); cbn; auto.
Qed.

Lemma drain_reach m f : forall d n, reach m d (fst (do_drain f d n)).
Proof.
  induction f as [|f IH]; intros d n; cbn [do_drain]; [apply reach_refl|]. destruct (d_queue d); [apply reach_refl|].
  eapply reach_trans; [apply step_reach|apply IH].
Qed.

Definition unasked (o : wop) : bool := match o with WRotate' _ | WStep | WDrain _ => true | _ => false end.

Theorem unasked_reach m d o : unasked o = true -> reach m d (wstep d o).
Proof. destruct o; try discriminate; intros _; cbn [wstep]; [apply rotate_reach|apply step_reach|apply drain_reach]. Qed.

Lemma compact_reach d id ev : reach false d (do_compact d id ev).
Proof.
  unfold do_compact. destruct (ks_of d id) as [ks|] eqn:K; [|apply reach_refl]. destruct (v_tables _); [apply reach_refl|].
  apply reach_one, (p_install d false id ks (TCompact (W_of d) (d_seqno d) ev (k_filter ks)) K); [cbn; auto|discriminate].
Qed.

Lemma write_reach d id k v vt mvt : reach false d (fst (write_one d id k v vt mvt)).
Proof.
  unfold write_one. destruct (ks_of d id) as [ks|]; [|apply reach_refl]. destruct (k_deleted ks); [apply reach_refl|].
  destruct (d_poisoned d); [apply reach_refl|apply reach_one, p_commit].
Qed.

(* Db.v publishes in the update that sets the tree; the composition sets the tree when the version is drawn *)
Lemma install_publish d ks o s : s <= d_seqno d ->
  prim (install d ks o) false
       (let d' := fst (draw_version d) in set_tree d' (d_seqno d') (tr_publish (d_trk d') s) ks (apply_top (k_tree ks) o)).
Proof. intros L. apply (p_publish (install d ks o) s). cbn. lia. Qed.

Lemma clear_reach d id : reach false d (fst (do_clear d id)).
Proof.
  unfold do_clear. destruct (ks_of d id) as [ks|] eqn:K; [|apply reach_refl]. destruct (d_poisoned d); [apply reach_refl|].
  (* [d1] is named as it stands in the goal: against [journal_clear d [id]] the last step would be dear to check *)
  set (d1 := upd (upd_journal d _) _ _ _). set (d2 := install d1 ks (TClear (d_seqno d1))).
  apply (reach_step false d d2); [apply (reach_step false d d1); [apply reach_one, (p_record d [id])|]|].
  - apply (p_install d1 false id ks (TClear _) K eq_refl). discriminate.
  - exact (install_publish d1 ks (TClear _) (d_seqno d) ltac:(cbn; lia)).
Qed.

Lemma ks_reach d h name : reach false d (fst (do_ks d h name)).
Proof.
  unfold do_ks. destruct (blookup name (d_map d)) eqn:B; cbn [fst]; [apply reach_one, p_views|].
  apply (reach_step false d (new_ks d name)); [apply reach_one, p_newks, B|]. cbn [draw_version fst snd].
  exact (p_views (new_ks d name) _ _ _ _ _).
Qed.

Lemma delks_reach d h : reach false d (fst (do_delks d h)).
Proof.
  unfold do_delks. destruct (alookup h (d_handles d)) as [id|]; [|apply reach_refl].
  destruct (ks_of d id) as [ks|] eqn:K; [|apply reach_refl].
  destruct (blookup (k_name ks) (d_map d)) as [mid|]; [|exact (reach_one false d _ (p_mark d id ks K))].
  cbn [draw_version fst snd]. pose (d1 := unregister d (k_name ks) mid).
  apply (reach_step false d d1); [apply reach_one, p_unreg|]. exact (p_mark d1 id ks K).
Qed.

(* Db.v sets the final tree into the keyspace list it started from; the composition sets one tree after the other *)
Lemma set_tree_twice d n trk n' trk' ks t t' :
  set_tree (set_tree d n trk ks t) n' trk' (with_tree ks t) t' = set_tree d n' trk' ks t'.
Proof.
  unfold set_tree. replace (set_ks (upd d n trk _) _) with (set_ks d (with_tree ks t')); [reflexivity|].
  unfold set_ks. cbn [d_kss upd with_tree k_id]. rewrite map_map. apply map_ext. intros x.
  destruct (k_id x =? k_id ks) eqn:E; cbn [k_id]; [rewrite N.eqb_refl|rewrite E]; reflexivity.
Qed.

Lemma ingest_reach d id items : reach false d (fst (do_ingest d id items)).
Proof.
  unfold do_ingest. destruct (ks_of d id) as [ks|] eqn:K; [|apply reach_refl].
  assert (FIN : forall dC, reach false d dC -> reach false d (push_msg (upd dC (d_seqno dC) (tr_gc (d_trk dC)) (d_kss dC)) (WCompact id))).
  { intros dC RC. eapply reach_step; [eapply reach_step; [exact RC|apply p_gc]|apply p_queue]. }
  destruct items as [|it0 its]; [exact (FIN d (reach_refl false d))|].
  destruct (t_rotate (k_tree ks)) as [t1 b] eqn:R.
  assert (E1 : t1 = fst (t_rotate (k_tree ks))) by (rewrite R; reflexivity).
  set (dA := set_tree d (d_seqno d) (d_trk d) ks t1).
  assert (RA : reach false d dA) by (subst t1; apply reach_one, (p_rotate d false id ks K)).
  assert (KA : ks_of dA id = Some (with_tree ks t1)) by (unfold dA, set_tree; now rewrite (ks_of_set d _ _ id ks _ id K), N.eqb_refl).
  assert (A1 : mem_of t1 (v_active (latest t1)) = []) by (subst t1; apply rotate_active_nil).
  set (ents := fun g => map (ient g) (it0 :: its)).
  set (n := d_seqno d). destruct (v_sealed (latest t1)) as [|i0 ids] eqn:SE.
  - apply (FIN (set_tree d (n + 1) (tr_set_visible (d_trk d) (n + 1)) ks (apply_top t1 (TIngest n (ents n))))).
    rewrite <- (set_tree_twice d n (d_trk d) _ _ ks t1).
    apply (reach_step false d dA _ RA), (p_install dA false id _ _ KA); [|discriminate].
    split; [reflexivity|split; [apply ient_seq|split; [exact A1|cbn [with_tree k_tree]; rewrite SE; constructor]]].
  - pose (t2 := fst (t_flush 0 n t1)).
    pose (dB := install dA (with_tree ks t1) (TFlush 0 n)).
    assert (RB : reach false d dB) by (apply (reach_step false d dA _ RA), (p_install dA false id _ _ KA); [cbn; auto|discriminate]).
    assert (KB : ks_of dB id = Some (with_tree ks t2)) by (unfold dB, install, set_tree; now rewrite (ks_of_set dA _ _ id _ _ id KA), N.eqb_refl).
    apply (FIN (set_tree d (n + 1 + 1) (tr_set_visible (tr_set_visible (d_trk d) (n + 1)) (n + 1 + 1)) ks (apply_top t2 (TIngest (n + 1) (ents (n + 1)))))).
    rewrite <- (set_tree_twice d n (d_trk d) _ _ ks t1). fold dA.
    rewrite <- (set_tree_twice dA (n + 1) (tr_set_visible (d_trk d) (n + 1)) _ _ (with_tree ks t1) t2).
    apply (reach_step false d dB _ RB), (p_install dB false id _ (TIngest (n + 1) (ents (n + 1))) KB); [|discriminate].
    split; [reflexivity|split; [apply ient_seq|apply flush0_ready, A1]].
Qed.

Theorem wstep_reach d o : reach false d (wstep d o).
Proof.
  destruct (unasked o) eqn:M; [exact (unasked_reach false d o M)|].
  destruct o; try discriminate; cbn [wstep]; [apply ks_reach|apply write_reach|apply reach_one, p_commit|apply clear_reach|apply compact_reach|apply ingest_reach].
Qed.

Lemma run_reach {O} (step : db -> O -> db) : (forall d o, reach false d (step d o)) ->
  forall ops d, reach false d (fold_left step ops d).
Proof.
  intros S. induction ops as [|o r IH]; intros d; cbn [fold_left]; [apply reach_refl|]. eapply reach_trans; [apply S|apply IH].
Qed.

Lemma wrun_reach ops d : reach false d (fold_left wstep ops d).
Proof. apply run_reach, wstep_reach. Qed.

(* [kall A] is kept by the primitives as soon as [A] is monotone in the counter, rotation, version-history maintenance, an
   installed operation and a committed batch keep it, and it holds of the empty tree *)
Section KAll.
  Variable A : N -> tree -> Prop.
  Hypothesis A_mono : forall n m t, n <= m -> A n t -> A m t.
  Hypothesis A_init : forall n, A n tree_init.
  Hypothesis A_rotate : forall n t, A n t -> A n (fst (t_rotate t)).
  Hypothesis A_maint : forall n W t, A n t -> A n (vh_maintenance W t).
  Hypothesis A_install : forall d ks o, upgrade_op d ks o -> A (d_seqno d) (k_tree ks) -> A (d_seqno d + 1) (apply_top (k_tree ks) o).
  Hypothesis A_commit : forall d ji mi, kall A d -> kall A (commit_batch d ji mi).

  Theorem prim_kall d m d' : prim d m d' -> kall A d -> kall A d'.
  Proof using All.
    intros [m0 q fq|m0|m0|m0 id ks K|m0|m0 id ks o K U _|ji mi|cl|s L| |hs sn its txs occ|name B|name mid|id ks K] H;
      try (apply (kall_ext A A_mono d); [reflexivity|cbn; lia|exact H]).
    - (* rotate *) apply (kall_set A A_mono); [apply A_rotate, H, (ks_of_in _ _ _ K)|lia|exact H].
    - (* maintenance *) eapply (kall_map A A_mono); [reflexivity|cbn; lia| |exact H].
      intros k n T. cbv beta. destruct (existsb _ (d_map d)); [apply A_maint|]; exact T.
    - (* install *) apply (kall_set A A_mono); [apply (A_install d ks o U), H, (ks_of_in _ _ _ K)|lia|exact H].
    - (* commit *) apply A_commit, H.
    - (* new keyspace *) intros k I. cbn in I. destruct I as [<-|I]; [apply A_init|]. apply filter_In in I as [I _].
      apply (A_mono (d_seqno d)); [cbn; lia|apply H, I].
    - (* mark deleted *) apply (kall_set A A_mono); [apply (H ks), (ks_of_in _ _ _ K)|lia|exact H].
  Qed.
End KAll.

Lemma upgrade_disciplined d ks o : upgrade_op d ks o -> disciplined (k_tree ks) o /\ fresh_below (d_seqno d + 1) o.
Proof. destruct o; cbn; try contradiction; try (split; exact I). intros [-> [E D]]. split; [exact D|]. intros e Ie. rewrite (E e Ie). lia. Qed.

Lemma prim_dinv d m d' : prim d m d' -> DInv d -> DInv d'.
Proof.
  apply (prim_kall TB tb_mono tb_init); [| | |exact commit_batch_dinv].
  - intros n t T. apply (tb_apply n n t TRotate T); cbn; auto; lia.
  - intros n W t T. apply (tb_apply n n t (TMaint W) T); cbn; auto; lia.
  - intros d0 ks o U T. destruct (upgrade_disciplined d0 ks o U). apply (tb_apply (d_seqno d0)); auto; lia.
Qed.

Lemma reach_dinv m d d' : reach m d d' -> DInv d -> DInv d'.
Proof. apply (reach_inv m DInv (fun a b => prim_dinv a m b)). Qed.

Theorem wrun_dinv ops d : DInv d -> DInv (fold_left wstep ops d).
Proof. apply (reach_dinv false), wrun_reach. Qed.

(* C01 at the level of the database model: for EVERY sequence of keyspace creation, single writes, committed batches
   (hence transaction commits), clear, memtable rotation, worker steps (flush with journal sealing and maintenance),
   major compaction and bulk ingestion, on every keyspace the point read of every key at every instant returns exactly
   the entry the scan shows *)
Theorem db_reads_agree mode filters ops ks k I :
  let d := fold_left wstep ops (db_init mode filters) in
  In ks (d_kss d) ->
  v_get_ent (k_tree ks) (latest (k_tree ks)) k I = newest k I (v_all (k_tree ks) (latest (k_tree ks))).
Proof. intros d Iks. apply (dinv_reads_agree d); [apply wrun_dinv, dinv_init|exact Iks]. Qed.
