(* FilterP.v — compaction filters: what a filter does to an entry and to the head of a key's versions in the compaction
   stream; the filtered form is stable; a Remove verdict does NOT survive a reopen (refutation witness for the "stays
   filtered" part of C18, known finding E17) *)
From FJ Require Import Prog.

Lemma apply_filter_none h : apply_filter None h = h.
Proof. unfold apply_filter. destruct (is_tomb h); reflexivity. Qed.

Lemma apply_filter_slot f e : ek (apply_filter f e) = ek e /\ es (apply_filter f e) = es e.
Proof.
  unfold apply_filter. destruct (is_tomb e); [auto|]. destruct f as [r|]; [|auto].
  destruct (rule_verdict r (ek e)); auto.
Qed.

Lemma apply_filter_verdict r e : is_tomb e = false ->
  match rule_verdict r (ek e) with
  | FKeep => apply_filter (Some r) e = e
  | FRemove => is_tomb (apply_filter (Some r) e) = true
  | FReplace v => is_tomb (apply_filter (Some r) e) = false /\ ev (apply_filter (Some r) e) = v
  end.
Proof. intros NT. unfold apply_filter. rewrite NT. destruct (rule_verdict r (ek e)); cbn; auto. Qed.

(* C18: a later compaction leaves the filtered form as it is *)
Lemma apply_filter_idem f e : apply_filter f (apply_filter f e) = apply_filter f e.
Proof.
  unfold apply_filter. destruct (is_tomb e) eqn:T; [now rewrite T|].
  destruct f as [r|]; [|now rewrite T].
  destruct (rule_verdict r (ek e)) eqn:V.
  - now rewrite T, V.
  - reflexivity.
  - cbn. rewrite V. reflexivity.
Qed.

Lemma gc_key_head W ev f h t :
  gc_key W ev f (h :: t) = [] /\ is_tomb (apply_filter f h) = true /\ ev = true \/
  exists rest, gc_key W ev f (h :: t) = apply_filter f h :: rest /\ (rest = [] \/ rest = gc_key W ev f t).
Proof.
  cbn [gc_key]. destruct t as [|p r]; [|destruct (es p <? W); [|right; exists (gc_key W ev f (p :: r)); auto]];
    (destruct (is_tomb (apply_filter f h) && ev) eqn:E; [left; apply andb_true_iff in E as [T V]; auto|right; exists []; auto]).
Qed.

(* C18, with a filter, away from the last level: the verdict is applied to the newest version, key and seqno never change *)
Theorem gc_key_filter_head W r h t :
  is_tomb h = false ->
  match gc_key W false (Some r) (h :: t) with
  | [] => False
  | h' :: _ =>
      ek h' = ek h /\ es h' = es h /\
      match rule_verdict r (ek h) with
      | FKeep => h' = h
      | FRemove => is_tomb h' = true
      | FReplace v => is_tomb h' = false /\ ev h' = v
      end
  end.
Proof.
  intros NT. destruct (gc_key_head W false (Some r) h t) as [(_ & _ & [=])|(rest & -> & _)].
  destruct (apply_filter_slot (Some r) h) as [K S]. split; [exact K|]. split; [exact S|]. apply apply_filter_verdict, NT.
Qed.

Definition c18_name : bytes := [97; 108; 112; 104; 97]%N.                      (* "alpha" *)
Definition c18_rule : frule := {| fr_remove := [97%N]; fr_replace := [] |}.    (* keys starting with 0x61: Remove *)
Definition c18_witness : list op :=
  [OKs 0 c18_name; OPut 0 [98%N] [187%N]; OPut 0 [97%N] [170%N]; ORotate 0; ODrain; OMajor 0;
   OGet VwNone 0 [97%N];            (* position 6: filtered, reads None *)
   OReopen; OKs 0 c18_name;
   OGet VwNone 0 [97%N]].           (* position 9: the original value is back, with no write in between *)

Lemma remove_verdict_resurrects :
  let out := snd (run as_is (db_init MPlain [(c18_name, c18_rule)]) c18_witness) in
  nth 6 out (Ox ObOk) = Ox (ObOpt None) /\ nth 9 out (Ox ObOk) = Ox (ObOpt (Some [170%N])).
Proof. vm_compute. split; reflexivity. Qed.

(* second face of the same defect (E17), for C04: a key deleted by an INGESTED tombstone (not journaled) comes back after
   a reopen once a last-level compaction has evicted the tombstone together with the value it hid: the keyspace's
   highest persisted seqno falls below the journal record of the value, which is then replayed *)
Definition c04_witness : list op :=
  [OKs 0 c18_name; OPut 0 [96%N] [0%N]; OPut 0 [97%N] [170%N]; OIngest 0 [ITomb [97%N]]; OMajor 0;
   OGet VwNone 0 [97%N];            (* position 5: deleted, reads None *)
   OReopen; OKs 0 c18_name;
   OGet VwNone 0 [97%N]].           (* position 8: the old value is back *)
Lemma ingested_tombstone_resurrects :
  let out := snd (run as_is (db_init MPlain []) c04_witness) in
  nth 5 out (Ox ObOk) = Ox (ObOpt None) /\ nth 8 out (Ox ObOk) = Ox (ObOpt (Some [170%N])).
Proof. vm_compute. split; reflexivity. Qed.
