(* OccP.v — backward validation of optimistic transactions (tx/optimistic/conflict_manager.rs, oracle.rs):
   what has_conflict decides, and why accepted transactions are equivalent to a serial execution
   in commit order. *)
From FJ Require Import Db BytesP.

Definition footprint (c : cm) (id : N) (k : bytes) : bool :=
  existsb (fun rr => (fst rr =? id) && rd_hits (snd rr) k) (cm_reads c).

Theorem has_conflict_iff mine other :
  has_conflict mine other = true <->
  exists id k, In (id, k) (cm_writes other) /\ footprint mine id k = true.
Proof.
  unfold has_conflict, footprint. split.
  - intros H. apply existsb_exists in H as ([id r] & Hr & H). apply existsb_exists in H as ([id' k] & Hw & H).
    cbn [fst snd] in H. apply andb_true_iff in H as [E Hit]. apply N.eqb_eq in E. subst id'.
    exists id, k. split; [exact Hw|]. apply existsb_exists. exists (id, r). split; [exact Hr|]. cbn. now rewrite N.eqb_refl.
  - intros (id & k & Hw & H). apply existsb_exists in H as ([id' r] & Hr & H). cbn [fst snd] in H.
    apply andb_true_iff in H as [E Hit]. apply N.eqb_eq in E. subst id'.
    apply existsb_exists. exists (id, r). split; [exact Hr|]. apply existsb_exists. exists (id, k). split; [exact Hw|].
    cbn. now rewrite N.eqb_refl.
Qed.

Lemma rd_hits_single x k : rd_hits (RdSingle x) k = true <-> x = k.
Proof. apply list_eqb_true_iff. Qed.
Lemma rd_hits_all k : rd_hits RdAll k = true.
Proof. reflexivity. Qed.
Lemma rd_hits_range lo hi k : rd_hits (RdRange lo hi) k = in_range (lo, hi) k.
Proof. reflexivity. Qed.
(* a range/prefix scan records the very range it iterates: range_of feeds both *)
Lemma rd_of_range_hits r k : rd_hits (rd_of_range r) k = in_range (range_of r) k.
Proof.
  unfold rd_of_range. destruct (range_of r) as [lo hi] eqn:R.
  destruct lo, hi; cbn; try reflexivity.
Qed.

Section Serial.
  Variable key value : Type.
  Variable key_eqb : key -> key -> bool.

  Definition state := key -> option value.
  Definition wset := list (key * option value).

  Fixpoint apply_ws (ws : wset) (s : state) : state :=
    match ws with
    | [] => s
    | (k, v) :: r => apply_ws r (fun x => if key_eqb k x then v else s x)
    end.

  Definition touches (ws : wset) (k : key) : bool := existsb (fun w => key_eqb (fst w) k) ws.
  Definition agree_on (P : key -> bool) (s1 s2 : state) : Prop := forall k, P k = true -> s1 k = s2 k.

  Lemma apply_ws_frame ws : forall s k, touches ws k = false -> apply_ws ws s k = s k.
  Proof.
    induction ws as [|[k0 v] r IH]; intros s k H; cbn [apply_ws]; [reflexivity|].
    cbn [touches existsb fst] in H. apply orb_false_iff in H as [H1 H2].
    rewrite IH by exact H2. cbn. now rewrite H1.
  Qed.

  Record ctx := { snap_idx : nat; fp : key -> bool; ws : wset }.

  Fixpoint states (h : list ctx) (s : state) : list state :=
    match h with
    | [] => [s]
    | c :: r => s :: states r (apply_ws (ws c) s)
    end.

  Definition disjoint (f : key -> bool) (w : wset) : Prop := forall k, f k = true -> touches w k = false.

  Fixpoint apply_range (h : list ctx) (s : state) : state :=
    match h with [] => s | c :: r => apply_range r (apply_ws (ws c) s) end.

  (* C07, validation soundness: if no transaction committed between T's snapshot and T's commit wrote a key
     inside T's footprint f, then the state T read from and the state just before T's commit agree on
     that footprint — so every read of T returns the same in the serial execution in commit order. *)
  Theorem validation_sound (between : list ctx) : forall (f : key -> bool) (s_snap : state),
    Forall (fun c => disjoint f (ws c)) between ->
    agree_on f s_snap (apply_range between s_snap).
  Proof.
    induction between as [|c r IH]; intros f s F k Hk; cbn [apply_range]; [reflexivity|].
    inversion F as [|? ? Hc Hr]; subst.
    rewrite <- (IH f (apply_ws (ws c) s) Hr k Hk).
    symmetry. apply apply_ws_frame. apply Hc. exact Hk.
  Qed.

  (* a refused or rolled-back transaction applies no write set: the state sequence is that of the others *)
  Lemma refused_no_effect (h1 h2 : list ctx) s : apply_range (h1 ++ h2) s = apply_range h2 (apply_range h1 s).
  Proof. revert s; induction h1 as [|c r IH]; intros s; cbn; [reflexivity|apply IH]. Qed.
End Serial.
