(* DurableP.v — the reader's half of journal durability.  Whatever prefix of the journal stream survives (which prefix is
   WriterP's matter: after a process crash the bytes handed to the OS, after power loss the bytes synced), by the reader's
   cut theorem (ReaderP) recovery reads exactly the complete batches in it; a prefix that covers the first batches
   completely gives back at least those. *)
From FJ Require Import Reader ReaderP.

Set Default Proof Using "All".

Section DurableP.
  Variable hash : bytes -> N.
  Variable compress : bytes -> bytes.
  Variable decompress : bytes -> N -> option bytes.
  Hypothesis hash_bound : forall b, hash b < 2 ^ 64.

  Notation enc_journal := (enc_journal hash compress).
  Notation read_journal := (read_journal hash compress decompress).
  Notation wf_batch := (wf_batch compress decompress).

  (* a surviving image: some prefix of the journal stream at least as long as what was made durable *)
  Theorem durable_batches_recovered (bs1 bs2 : list wbatch) (m z : nat) :
    Forall wf_batch (bs1 ++ bs2) ->
    (length (enc_journal bs1) <= m)%nat ->
    exists rest,
      read_journal (firstn m (enc_journal (bs1 ++ bs2)) ++ zeros z)
        = (map rbatch_of (bs1 ++ rest), RStop (blen (enc_journal (bs1 ++ rest))))
      /\ exists k, rest = firstn k bs2.
  Proof.
    intros W H.
    rewrite (read_journal_cut hash compress decompress hash_bound _ m z W),
      (complete_prefix_app hash compress decompress hash_bound) by exact H.
    destruct (complete_prefix_firstn hash compress decompress hash_bound bs2 (m - length (enc_journal bs1)))
      as (k & -> & _).
    eexists. split; [reflexivity|now exists k].
  Qed.
End DurableP.
