(* C03 — batches and transactions are all-or-nothing across crashes.
   This file contains only the property theorems; proofs are in proofs/. *)
From FJ Require Import Reader ReaderP.

Section C03.
  Variable hash : bytes -> N.
  Variable compress : bytes -> bytes.
  Variable decompress : bytes -> N -> option bytes.
  Hypothesis hash_bound : forall b, hash b < 2 ^ 64.

  (* The journal may end at ANY byte offset m of ANY list of well-formed
     batches, followed by ANY amount of zero padding: the reader returns
     exactly the batches that lie completely within the first m bytes, never
     an error, never a partial batch, and cuts the file back to their end. *)
  Theorem C03_cut_any_byte : forall (bs : list wbatch) (m z : nat),
    Forall (wf_batch compress decompress) bs ->
    read_journal hash compress decompress
        (firstn m (enc_journal hash compress bs) ++ zeros z)
    = (map rbatch_of (complete_prefix hash compress bs m),
       RStop (blen (enc_journal hash compress (complete_prefix hash compress bs m)))).
  Proof. exact (read_journal_cut hash compress decompress hash_bound). Qed.

  (* After that repair, batches appended later are recovered again. *)
  Theorem C03_reappend : forall (bs : list wbatch) (m z : nat) (bs' : list wbatch) (z' : nat),
    Forall (wf_batch compress decompress) bs ->
    Forall (wf_batch compress decompress) bs' ->
    let cp := complete_prefix hash compress bs m in
    let repaired := firstn (length (enc_journal hash compress cp))
                      (firstn m (enc_journal hash compress bs) ++ zeros z) in
    repaired = enc_journal hash compress cp /\
    read_journal hash compress decompress (repaired ++ enc_journal hash compress bs' ++ zeros z')
      = (map rbatch_of (cp ++ bs'), RStop (blen (enc_journal hash compress (cp ++ bs')))).
  Proof. exact (read_journal_reappend hash compress decompress hash_bound). Qed.
End C03.

Print Assumptions C03_cut_any_byte.
Print Assumptions C03_reappend.
