(* C07 — optimistic transactions are serializable.  Only property theorems (partial: see DESIGN.md). *)
From FJ Require Import Db OccP.

(* has_conflict answers exactly: "did the other transaction write a key that lies in one of my recorded
   read footprints (same keyspace)?" — for all nine range-bound combinations, point reads and full scans *)
Theorem C07_has_conflict_iff : forall mine other : cm,
  has_conflict mine other = true <->
  exists id k, In (id, k) (cm_writes other) /\ footprint mine id k = true.
Proof. exact has_conflict_iff. Qed.

(* what each read records covers what it reads: a point read its key, a full scan everything, a range or
   prefix scan exactly the range it iterates (the same [range_of] feeds the scan and the record) *)
Theorem C07_footprints :
  (forall x k, rd_hits (RdSingle x) k = true <-> x = k) /\
  (forall k, rd_hits RdAll k = true) /\
  (forall r k, rd_hits (rd_of_range r) k = in_range (range_of r) k).
Proof. exact (conj rd_hits_single (conj rd_hits_all rd_of_range_hits)). Qed.

(* validation soundness, for any key/value types: if none of the transactions committed between T's
   snapshot and T's commit touches T's footprint, the snapshot state and the state just before T's commit
   agree on the footprint, hence T's reads are those of the serial execution in commit order *)
Theorem C07_validation_sound :
  forall (key value : Type) (key_eqb : key -> key -> bool),
  forall (between : list (ctx key value)) (t : ctx key value) (s_snap : state key value),
  Forall (fun c => disjoint key value key_eqb (fp key value t) (ws key value c)) between ->
  agree_on key value (fp key value t) s_snap (apply_range key value key_eqb between s_snap).
Proof. intros. apply validation_sound. assumption. Qed.

Print Assumptions C07_has_conflict_iff.
Print Assumptions C07_footprints.
Print Assumptions C07_validation_sound.
