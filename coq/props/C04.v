(* C04 — close and reopen reproduces exactly the same logical content.
   FULL STATEMENT decided by the differential check (histories with reopen cycles, ingestion, clear, sealed journals;
   dump before close = dump after reopen; point reads = scans).  Proved parts are named ..._partial: they are the two
   halves of the replay rule that the repairs 3ed2a5b (active journal) and dc3abc4 (sealed journals) put in place. *)
From FJ Require Import Prog RecoverP FilterP DbOrderP RecoverInvP.

(* a journal batch (items and clears) that every keyspace's tables already cover is not replayed: table data that never
   went through the journal (bulk ingestion, compaction-filter output) is neither shadowed nor wiped *)
Theorem C04_covered_records_not_replayed_partial : forall cfg meta mp sq kss b,
  d_replay_shadow cfg = false -> d_clear_replay cfg = false -> covered (rb_seqno b) kss ->
  replay_batch cfg meta mp (sq, kss) b = (sq, kss).
Proof. exact replay_covered_noop. Qed.

(* a record the tables do not cover is put back into its keyspace's active memtable with its original seqno *)
Theorem C04_uncovered_records_replayed_partial : forall cfg s meta mp k it name,
  alookup (ri_ks it) meta = Some name -> blookup name mp = Some (k_id k) ->
  (forall p, t_highest_persisted (k_tree k) = Some p -> p < s) ->
  replay_items cfg s [k] meta mp [it] =
  [with_tree k (t_append (k_tree k) (mkEnt (ri_key it) s (ri_vt it) (ri_value it)))].
Proof. exact replay_uncovered_appended. Qed.

Theorem C04_covered_example : covered 3 [c04_ks].
Proof. exact covered_example. Qed.

(* the FULL statement is REFUTED (known finding E17): the watermark the replay rule relies on — the keyspace's highest
   persisted seqno — is not monotone.  A key deleted by an ingested tombstone reads as deleted, and after a reopen reads its
   old value again, once a last-level compaction has evicted the tombstone.  Same history on the implementation:
   corpus/C04/e17_ingested_tombstone_resurrected.txt *)
Theorem C04_reopen_identity_refuted :
  let out := snd (run as_is (db_init MPlain []) c04_witness) in
  nth 5 out (Ox ObOk) = Ox (ObOpt None) /\ nth 8 out (Ox ObOk) = Ox (ObOpt (Some [170%N])).
Proof. exact ingested_tombstone_resurrects. Qed.

(* recovery re-establishes the invariant of the write path, for ANY disk image whose trees hold tables only (what a close
   leaves) and whose journal batches carry increasing seqnos, oldest journal first: every recovered keyspace has its sources
   ordered by recency (a journal record is put back only when it is newer than everything the tables hold; sealed journals
   rebuild memtables that are dropped or sealed) and every entry below the restored counter *)
Theorem C04_recovery_restores_the_write_invariant : forall cfg mode filters active sealed meta dirs pn ms,
  d_replay_shadow cfg = false -> d_seqno_journal cfg = false ->
  (forall p, In p dirs -> QQ 0 (snd p)) -> incr 0 (concat sealed ++ active) ->
  DInv (recover cfg mode filters active sealed meta dirs pn ms).
Proof. exact recover_dinv. Qed.

(* hence, after EVERY program of writes, maintenance and reopens, point reads agree with scans on every keyspace — the
   clause of the property that the replay defects (3ed2a5b, dc3abc4) broke *)
Theorem C04_reads_agree_after_reopen : forall mode filters (ops : list rop) ks k I,
  let d := fold_left rstep ops (db_init mode filters) in
  In ks (d_kss d) ->
  v_get_ent (k_tree ks) (latest (k_tree ks)) k I = newest k I (v_all (k_tree ks) (latest (k_tree ks))).
Proof. exact reads_agree_with_reopen. Qed.

(* the journal a reopen finds is the journal the close left, and both invariants survive any number of reopen cycles *)
Theorem C04_reopen_cycles_keep_invariants : forall (ops : list rop) d,
  DInv d -> JS d -> DInv (fold_left rstep ops d) /\ JS (fold_left rstep ops d).
Proof. exact rrun_inv. Qed.

Print Assumptions C04_recovery_restores_the_write_invariant.
Print Assumptions C04_reads_agree_after_reopen.
Print Assumptions C04_reopen_cycles_keep_invariants.
Print Assumptions C04_covered_records_not_replayed_partial.
Print Assumptions C04_uncovered_records_replayed_partial.
Print Assumptions C04_covered_example.
Print Assumptions C04_reopen_identity_refuted.
