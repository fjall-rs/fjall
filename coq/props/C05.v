(* C05 — snapshots, read transactions and iterators are frozen in time. *)
From FJ Require Import Db LsmP TrackerP DbP DbOrderP RefineP FrozenP.

(* 1. the snapshot tracker, for EVERY sequence of open / clone / close / publish / gc / pullup
      (each nonce closed once): the open-snapshot table counts the live holders, the GC watermark stays
      below every live instant and below the visible seqno *)
Theorem C05_tracker_invariants : forall (ops : list top) (v : N),
  let st := fold_left tstep ops (tr_init v, nil) in
  (forall i, cnt i (snd st) = trow i (tdata (fst st))) /\
  (forall i, In i (snd st) -> lowest_freed (fst st) <= i - 1) /\
  lowest_freed (fst st) <= visible (fst st) - 1.
Proof.
  intros ops v st.
  pose proof (inv_run ops (tr_init v, nil) (inv_init v)) as I. fold st in I.
  split; [exact (inv_count _ _ I)|]. split; [exact (inv_wm_live _ _ I)|exact (inv_wm_vis _ _ I)].
Qed.

(* 2. reads at instant I (point read and scan, through the version-history selection) are unchanged by
      EVERY sequence of tree operations — memtable appends, rotation, flush, compaction (any filter,
      tombstone eviction or not), clear, ingestion registration, version-history maintenance — whose new
      seqnos are >= I and whose GC watermarks are <= I *)
Theorem C05_reads_frozen : forall (ops : list tree_op) (t : tree) (k : bytes) (I : N),
  ids_ok t -> Forall (op_ok I) ops ->
  reads (fold_left apply_top ops t) k I = reads t k I.
Proof. exact run_frozen. Qed.

(* 3. fjall passes exactly such parameters: for every live view, the next seqno drawn (writes, version
      upgrades) is >= its instant and the watermark given to flush / compaction / maintenance is <= it *)
Theorem C05_fjall_parameters_ok : forall (d : db) (live : list N) (i : N),
  Inv (d_trk d) live -> vis_le_seq d -> In i live ->
  i <= d_seqno d /\ W_of d <= i.
Proof. exact params_ok. Qed.

(* 4. using a live snapshot never fails: its super-version is always found *)
Theorem C05_select_defined : forall (t : tree) (I : N),
  vers t <> nil -> (I = 0 \/ exists v, In v (vers t) /\ v_seq v < I) -> select_version t I <> None.
Proof. intros t I _. apply select_some. Qed.

(* 5. the composition, at the level of the database model: a view whose instant is registered in the snapshot tracker reads the
      same — point reads and scans, through the version selection, in every keyspace that exists — after EVERY operation
      (keyspace creation, writes, batches = transaction commits, clears, ingestion, rotation with its tracker GC and
      version-history maintenance, worker steps, drains, major compaction with any filter) ... *)
Theorem C05_live_view_frozen_by_every_operation : forall (d : db) (o : wop) (live : list N) (i : N),
  DInv d -> UQ d -> VInv d live -> In i live ->
  forall id k, kfind (d_kss d) id <> None -> vreads i (d_kss (wstep d o)) id k = vreads i (d_kss d) id k.
Proof. exact wstep_frozen. Qed.

(*    ... the tracker invariant survives every operation ... *)
Theorem C05_tracker_invariant_kept : forall (d : db) (o : wop) (live : list N), VInv d live -> VInv (wstep d o) live.
Proof. exact wstep_VInv. Qed.

(*    ... hence: a snapshot opened after ANY program, then ANY program: it still reads what it read when it was opened *)
Theorem C05_snapshot_frozen : forall mode filters (p1 p2 : list wop) (id : N) (k : bytes),
  let d1 := fold_left wstep p1 (db_init mode filters) in
  let i := visible (d_trk d1) in
  let d2 := fold_left wstep p2 (open_view d1) in
  kfind (d_kss d1) id <> None -> vreads i (d_kss d2) id k = vreads i (d_kss d1) id k.
Proof. exact snapshot_frozen. Qed.

Print Assumptions C05_live_view_frozen_by_every_operation.
Print Assumptions C05_tracker_invariant_kept.
Print Assumptions C05_snapshot_frozen.
Print Assumptions C05_tracker_invariants.
Print Assumptions C05_reads_frozen.
Print Assumptions C05_fjall_parameters_ok.
Print Assumptions C05_select_defined.
