(* C08 — transaction-local semantics.  Only property theorems. *)
From FJ Require Import Prog TxP.
From FJ Require TxRefineP.

(* read-your-writes and last-write-wins: after ANY list of in-transaction inserts/removes (any keys,
   any overlap), a read of the overlay returns the last write to that key, else what it held before *)
Theorem C08_read_your_writes : forall (ws : list twrite) (s0 : N) (acc : list ent) (k : bytes),
  all_below s0 acc -> s0 + N.of_nat (length ws) < TWO64 ->
  read_over (overlay ws s0 acc) k = last_write ws k (read_over acc k).
Proof. exact overlay_reads. Qed.

(* commit submits exactly the final write per key: every key's newest overlay entry is in the batch ... *)
Theorem C08_commit_complete : forall (id : N) (o : list ent) (k : bytes) (e : ent),
  newest k TWO64 o = Some e ->
  In {| ri_ks := id; ri_key := k; ri_value := ev e; ri_vt := et e |} (commit_items_of id o).
Proof. exact commit_items_complete. Qed.

(* ... and every batch item is its key's newest overlay entry (no stale intermediate write is committed) *)
Theorem C08_commit_sound : forall (id : N) (o : list ent) (it : ritem),
  In it (commit_items_of id o) ->
  exists e, newest (ri_key it) TWO64 o = Some e /\ ri_value it = ev e /\ ri_vt it = et e /\ ri_ks it = id.
Proof. exact commit_items_sound. Qed.

(* rollback / drop changes nothing but the snapshot table: keyspaces, journal, seqno, registry untouched *)
Theorem C08_rollback_noop : forall (cfg : defects) (d : db) (t : N) (x : txst),
  alookup t (d_txs d) = Some x ->
  let d' := fst (db_step cfg d (OTxRollback t)) in
  d_kss d' = d_kss d /\ d_active d' = d_active d /\ d_seqno d' = d_seqno d /\ d_map d' = d_map d /\
  d_occ d' = d_occ d /\ visible (d_trk d') = visible (d_trk d).
Proof.
  intros cfg d t x H. cbn [db_step]. rewrite H. cbn [fst].
  unfold close_n, set_trk, del_tx, upd, upd_views. cbn.
  unfold tr_close. destruct (_ =? 0); cbn; repeat split; reflexivity.
Qed.

(* the interpreter's insert/remove inside a transaction is exactly one such overlay step, private to
   the written keyspace, with a private seqno counter *)
Theorem C08_tx_write_is_overlay_step : forall x id k v vt tr,
  over_of (tx_write x id k v vt tr) id = mem_insert (mkEnt k (tx_seq x) vt v) (over_of x id) /\
  tx_seq (tx_write x id k v vt tr) = tx_seq x + 1 /\
  tx_instant (tx_write x id k v vt tr) = tx_instant x /\
  forall j, j <> id -> over_of (tx_write x id k v vt tr) j = over_of x j.
Proof. exact tx_write_step. Qed.

(* the commit at the level of the database model, tied to the ordered-map refinement of C01: a commit of either transactional
   database (and of the single-operation helpers, which are one-operation transactions) that is ACCEPTED acts on the reference
   maps as its commit batch applied item by item — by C08_commit_complete / C08_commit_sound that batch is exactly the final
   write per key — and changes nothing else; a commit that is REFUSED (SSI conflict, poisoned) or a transaction that wrote
   nothing leaves every read of every keyspace as it was *)
Theorem C08_commit_refines_reference_map : forall (I : N) (d : db) (x : txst),
  DbOrderP.DInv d -> d_seqno d < I ->
  forall id k,
  RefineP.absd I (fst (tx_commit as_is d x)) id k =
  (if RefineP.is_ok (snd (tx_commit as_is d x))
   then fold_left (RefineP.sitem (RefineP.has_ks d)) (tx_items x) (RefineP.absd I d)
   else RefineP.absd I d) id k.
Proof. exact TxRefineP.tx_commit_refines. Qed.

Print Assumptions C08_tx_write_is_overlay_step.
Print Assumptions C08_read_your_writes.
Print Assumptions C08_commit_complete.
Print Assumptions C08_commit_sound.
Print Assumptions C08_rollback_noop.
Print Assumptions C08_commit_refines_reference_map.
