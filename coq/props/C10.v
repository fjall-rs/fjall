(* C10 — a journal file is deleted only when nothing in it is still needed.
   Model: JournalMgr.v (one step = one critical section of the real code: a write under the journal lock, a memtable
   rotation, the registration of flushed tables, journal sealing with build_seqno_map under the journal lock,
   JournalManager::maintenance, delete_keyspace, a compaction dropping an item).  The crash part of the statement
   ("a crash immediately after any journal deletion loses nothing") is decided on the real code by fault enumeration
   (py/props/c10.py); the theorems give the reason for every interleaving of these steps. *)
From FJ Require Import JournalMgr JournalMgrP.
From FJ Require Import Db DbOrderP RefineP RecoverInvP JournalInvP.

(* every record of every unlinked journal file had reached a table of its keyspace, or the keyspace was deleted *)
Theorem C10_evicted_only_when_durable : forall (ops : list jop) (k x : N),
  In (k, x) (m_evicted (jrun ops)) -> In x (m_flushed (jrun ops) k) \/ m_del (jrun ops) k = true.
Proof. exact evicted_only_when_durable. Qed.

(* journals are reclaimed oldest first: maintenance removes a prefix of the sealed list, and exactly its records *)
Theorem C10_oldest_first : forall s : jm,
  exists pre, m_sealed s = pre ++ m_sealed (jstep s JMaint) /\
              m_evicted (jstep s JMaint) = m_evicted s ++ flat_map j_recs pre.
Proof. exact maintenance_oldest_first. Qed.

(* once all keyspaces are flushed the number of journal files returns to one.  PARTIAL: under the side condition that no
   compaction has dropped the newest flushed item of a keyspace (then get_highest_persisted_seqno falls below the
   watermark and the journal stays until that keyspace flushes something newer — liveness only, nothing is lost) *)
Theorem C10_back_to_one_partial : forall ops : list jop,
  all_flushed (jrun ops) -> newest_kept (jrun ops) -> journal_count (jstep (jrun ops) JMaint) = 1.
Proof. exact back_to_one. Qed.

(* the statements are not vacuous: a lagging keyspace keeps the sealed journal, its flush releases it *)
Theorem C10_example :
  journal_count (jrun c10_example) = 2 /\ m_evicted (jrun c10_example) = [] /\
  journal_count (jrun (c10_example ++ [JRotate 2; JFlush 2; JMaint])) = 1 /\
  m_evicted (jrun (c10_example ++ [JRotate 2; JFlush 2; JMaint])) = [(1, 0); (2, 1); (1, 2); (2, 2)].
Proof. exact c10_example_runs. Qed.

(* at the level of the database model (Db.v: the journal as sealed files + active file, eviction by JournalManager::maintenance's
   rule against the watermarks taken at sealing, flush, rotation, compaction, ingestion, clear): in EVERY state reached by a
   program of keyspace creation, writes, batches, clears, ingestion, rotation, worker steps, drains and major compaction, every
   entry that lives only in a memtable (active or sealed) of a registered, undeleted keyspace has its batch in a journal file
   that still exists — a journal file is unlinked only when nothing in it is still needed *)
Theorem C10_journal_complete : forall mode filters (ops : list wop) (ks : kspace) (e : ent),
  let d := fold_left wstep ops (db_init mode filters) in
  In ks (d_kss d) -> In (k_id ks) (map snd (d_map d)) -> k_deleted ks = false ->
  In e (memsrc (k_tree ks)) -> exists b, In b (J d) /\ rb_seqno b = es e.
Proof. exact journal_complete. Qed.

(* ... also with keyspace deletions anywhere in the program: a deleted keyspace no longer holds a journal back, but deleting it
   never releases a journal that another registered keyspace still needs *)
Theorem C10_journal_complete_with_deletion : forall mode filters (ops : list dop) (ks : kspace) (e : ent),
  let d := fold_left dstep ops (db_init mode filters) in
  In ks (d_kss d) -> In (k_id ks) (map snd (d_map d)) -> k_deleted ks = false ->
  In e (memsrc (k_tree ks)) -> exists b, In b (J d) /\ rb_seqno b = es e.
Proof. exact journal_complete_with_deletion. Qed.

(* the step that matters: eviction keeps the invariant (M2: completeness, M3: a sealed journal's watermarks cover every
   memtable entry of a registered keyspace whose batch it holds) *)
Theorem C10_eviction_keeps_journal_complete : forall d, UQ d -> DInv d -> MJ d -> MJ (journal_maintenance d).
Proof. exact MJ_evict. Qed.

Print Assumptions C10_evicted_only_when_durable.
Print Assumptions C10_oldest_first.
Print Assumptions C10_back_to_one_partial.
Print Assumptions C10_example.
Print Assumptions C10_journal_complete.
Print Assumptions C10_eviction_keeps_journal_complete.
Print Assumptions C10_journal_complete_with_deletion.
