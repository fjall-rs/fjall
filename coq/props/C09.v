(* C09 — persist(SyncData|SyncAll) makes all earlier writes power-loss durable.  Only property theorems. *)
From FJ Require Import Reader ReaderP Writer WriterP DurableP.

(* For EVERY sequence of journal writes and persists (any entry sizes: buffered, spilled, or bypassing the
   8 KiB buffer), a persist with SyncData or SyncAll leaves the whole byte stream written so far in the part of the
   file that survives power loss ... *)
Theorem C09_persist_sync_durable : forall (ops : list wop) (m : pmode),
  m <> PBuffer ->
  powerloss_image (w_persist (fold_left w_step ops w_init) m) = written ops.
Proof. intros ops m. exact (run_persist_sync_durable ops w_init m inv_init). Qed.

(* ... and persist(Buffer) (what every write does unless journal persist is manual) leaves it in the part that
   survives a process crash *)
Theorem C09_persist_buffer_crash_safe : forall (ops : list wop) (m : pmode),
  crash_image (w_persist (fold_left w_step ops w_init) m) = written ops.
Proof. intros ops m. exact (run_persist_flushes ops w_init m inv_init). Qed.

(* at any time what survives power loss is a prefix of the stream written *)
Theorem C09_powerloss_is_prefix : forall (ops : list wop),
  exists tl, written ops = powerloss_image (fold_left w_step ops w_init) ++ tl.
Proof.
  intros ops. destruct (powerloss_prefix (fold_left w_step ops w_init)) as [tl E].
  rewrite content_run in E. exists tl. exact E.
Qed.

(* end to end with the reader (C03): if the surviving image is any prefix of the journal stream that covers the
   batches bs1 written before the last sync, recovery returns bs1 followed by a prefix of the later batches —
   every synced batch is recovered, nothing partial, nothing reordered *)
Theorem C09_synced_batches_recovered :
  forall (hash : bytes -> N) (compress : bytes -> bytes) (decompress : bytes -> N -> option bytes),
  (forall b, hash b < 2 ^ 64) ->
  forall (bs1 bs2 : list wbatch) (m z : nat),
  Forall (wf_batch compress decompress) (bs1 ++ bs2) ->
  (length (enc_journal hash compress bs1) <= m)%nat ->
  exists rest,
    read_journal hash compress decompress (firstn m (enc_journal hash compress (bs1 ++ bs2)) ++ zeros z)
      = (map rbatch_of (bs1 ++ rest), RStop (blen (enc_journal hash compress (bs1 ++ rest))))
    /\ exists k, rest = firstn k bs2.
Proof. intros. apply durable_batches_recovered; assumption. Qed.

Print Assumptions C09_persist_sync_durable.
Print Assumptions C09_persist_buffer_crash_safe.
Print Assumptions C09_powerloss_is_prefix.
Print Assumptions C09_synced_batches_recovered.
