(* C17 — one live instance per directory; only compatible directories open.  Only property theorems. *)
From FJ Require Import Marker MarkerP.

(* for ALL contents of the version marker file: accepted iff it starts with "FJL" followed by 3 *)
Theorem C17_marker : forall b : bytes,
  check_version b = OpenOk <-> exists r, b = 70 :: 74 :: 76 :: 3 :: r.
Proof. exact check_version_ok_iff. Qed.

(* a marker that is unknown or from another major version: InvalidVersion, before any file-system effect *)
Theorem C17_refused_unmodified : forall (d : dirstate) (b : bytes),
  ds_marker d = Some b -> (forall r, b <> 70 :: 74 :: 76 :: 3 :: r) ->
  fst (open_db d) = [] /\ exists v, snd (open_db d) = InvalidVersion v.
Proof. exact open_refuses_unmodified. Qed.

(* a second open while some handle holds the lock fails and has no file-system effect *)
Theorem C17_locked_unmodified : forall (d : dirstate) (b : bytes),
  ds_marker d = Some b -> ds_lock_held d = true ->
  fst (open_db d) = [] /\ snd (open_db d) <> OpenOk.
Proof. exact open_locked_unmodified. Qed.

(* the lock is held exactly while some handle (database clone, keyspace, transactional wrapper) is alive,
   for every order of acquiring, cloning and dropping handles *)
Theorem C17_lock_iff_handle : forall (ops : list lock_op),
  let s := fold_left lock_step ops {| l_refs := 0; l_locked := false |} in
  l_locked s = true <-> (0 < l_refs s)%nat.
Proof. intros ops. exact (lock_run_inv ops _ lock_inv_free). Qed.

(* the "absent marker" part of the statement is REFUTED (known finding E18): such a directory is refused, but only after
   create_new has already acted on it *)
Theorem C17_absent_marker_refuted :
  exists d, ds_marker d = None /\ snd (open_db d) = IoError /\ In FsCreateLockFile (fst (open_db d)).
Proof. exact absent_marker_refusal_has_effects. Qed.

Print Assumptions C17_marker.
Print Assumptions C17_refused_unmodified.
Print Assumptions C17_locked_unmodified.
Print Assumptions C17_lock_iff_handle.
Print Assumptions C17_absent_marker_refuted.
