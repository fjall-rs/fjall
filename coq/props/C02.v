(* C02 — acknowledged writes survive a process crash, in commit order.
   The journal part is a theorem; the interplay with tables, flush and eviction is decided by crash enumeration
   on the real code (py/props/c02.py). *)
From FJ Require Import ReaderP Writer WriterP DurableP Db RecoverP.
From FJ Require JournalInvP.

(* with automatic journal persist every write is followed by persist(Buffer) before it is acknowledged:
   the bytes of every acknowledged batch have been handed to the OS *)
Theorem C02_acknowledged_bytes_reach_the_os : forall (ops : list wop) (m : pmode),
  crash_image (w_persist (fold_left w_step ops w_init) m) = written ops.
Proof. intros ops m. exact (run_persist_flushes ops w_init m inv_init). Qed.

(* a process crash leaves some prefix of the journal stream that covers the acknowledged batches bs1 (possibly
   with a torn tail of the batch in flight): recovery returns bs1 plus possibly the complete batch(es) in flight,
   in order — a prefix of the commit sequence containing every acknowledged batch *)
Theorem C02_journal_recovers_acknowledged_prefix :
  forall (hash : bytes -> N) (compress : bytes -> bytes) (decompress : bytes -> N -> option bytes),
  (forall b, hash b < 2 ^ 64) ->
  forall (bs1 bs2 : list wbatch) (m z : nat),
  Forall (wf_batch compress decompress) (bs1 ++ bs2) ->
  (length (enc_journal hash compress bs1) <= m)%nat ->
  exists rest,
    read_journal hash compress decompress (firstn m (enc_journal hash compress (bs1 ++ bs2)) ++ zeros z)
      = (map rbatch_of (bs1 ++ rest), RStop (blen (enc_journal hash compress (bs1 ++ rest))))
    /\ exists k, rest = firstn k bs2.
Proof. intros. apply durable_batches_recovered; assumption. Qed.

(* model level (Db.v): an acknowledged insert / remove / clear has appended exactly its own batch, with the seqno it was
   applied with, to the active journal — together with C04_uncovered_records_replayed_partial this is why replay brings
   it back.  PARTIAL: single operations; batches and transaction commits go through the same commit_batch. *)
Theorem C02_acknowledged_write_is_journaled_partial : forall d id k v vt mvt d',
  write_one d id k v vt mvt = (d', ObOk) ->
  d_active d' = d_active d ++ [mk_batch (d_seqno d) [{| ri_ks := id; ri_key := k; ri_value := v; ri_vt := vt |}] []] /\
  d_seqno d' = d_seqno d + 1 /\ d_sealed d' = d_sealed d.
Proof. exact write_one_journaled. Qed.

Theorem C02_acknowledged_clear_is_journaled_partial : forall d id d',
  do_clear d id = (d', ObOk) -> d_active d' = d_active d ++ [mk_batch (d_seqno d) [] [id]].
Proof. exact clear_journaled. Qed.

(* model level, every program (with journal sealing and eviction): whatever has not reached a table is in a journal file that
   still exists — so it is there to be replayed after a crash (C04_uncovered_records_replayed_partial says it is replayed) *)
Theorem C02_unflushed_writes_are_in_a_live_journal : forall mode filters (ops : list DbOrderP.wop) (ks : kspace) (e : ent),
  let d := fold_left DbOrderP.wstep ops (db_init mode filters) in
  In ks (d_kss d) -> In (k_id ks) (map snd (d_map d)) -> k_deleted ks = false ->
  In e (RecoverInvP.memsrc (k_tree ks)) -> exists b, In b (RecoverInvP.J d) /\ rb_seqno b = es e.
Proof. exact JournalInvP.journal_complete. Qed.

Print Assumptions C02_acknowledged_bytes_reach_the_os.
Print Assumptions C02_journal_recovers_acknowledged_prefix.
Print Assumptions C02_acknowledged_write_is_journaled_partial.
Print Assumptions C02_acknowledged_clear_is_journaled_partial.
Print Assumptions C02_unflushed_writes_are_in_a_live_journal.
