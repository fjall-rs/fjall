(* C12 — keyspaces are isolated, and a deleted keyspace never comes back.
   FULL STATEMENT decided by the differential check (create/write/delete/re-create histories with reopen
   anywhere).  Proved parts are named ..._partial. *)
From FJ Require Import Prog RecoverP DbOrderP RefineP RecoverInvP.

(* a single write to one keyspace leaves every other keyspace object (tree included) exactly as it was *)
Theorem C12_frame_partial : forall d id k v vt mvt ks',
  In ks' (d_kss d) -> k_id ks' <> id -> In ks' (d_kss (fst (write_one d id k v vt mvt))).
Proof. exact write_frame. Qed.

(* direct inserts and removes through a handle of a deleted keyspace are refused and change nothing *)
Theorem C12_deleted_refused_partial : forall d id k v vt mvt ks,
  ks_of d id = Some ks -> k_deleted ks = true -> write_one d id k v vt mvt = (d, ObErr E_DELETED).
Proof. exact write_deleted_refused. Qed.

(* the id counter after recovery is above every directory id and every keyspace id in any journal record (sealed or
   active, items and clears), for ANY disk image; a keyspace created under a new name takes exactly that value and
   starts with an empty tree: no record of a deleted keyspace can ever be replayed into a later keyspace *)
Theorem C12_recovered_ids_fresh_partial : forall cfg mode filters active sealed meta dirs pn ms,
  d_id_reuse cfg = false ->
  let d := recover cfg mode filters active sealed meta dirs pn ms in
  (forall p, In p dirs -> fst p < d_next_id d) /\
  (forall b it, In b (concat sealed ++ active) -> In it (rb_items b) -> ri_ks it < d_next_id d) /\
  (forall b id, In b (concat sealed ++ active) -> In id (rb_clears b) -> id < d_next_id d).
Proof. exact recover_next_id_above. Qed.

Theorem C12_new_keyspace_takes_next_id_partial : forall d h name,
  blookup name (d_map d) = None ->
  let d' := fst (do_ks d h name) in
  d_next_id d' = d_next_id d + 1 /\
  exists ks, In ks (d_kss d') /\ k_id ks = d_next_id d /\ k_name ks = name /\ k_tree ks = tree_init.
Proof. exact new_keyspace_takes_next_id. Qed.

(* frame, for EVERY operation of the database model other than deletion and reopen (keyspace creation, writes, batches, clear,
   ingestion, rotation, worker steps, drains, major compaction): the latest read of every key of every keyspace the operation
   is not addressed to is unchanged.  op_target: the id a write / clear / ingestion names, the ids of a batch's items, the id a
   new keyspace receives; maintenance operations have no target at all. *)
Theorem C12_frame : forall (I : N) (d : db) (o : wop) (i : N) (k : bytes),
  DInv d -> nofilter d -> d_seqno (wstep d o) <= I -> ~ op_target d o i ->
  absd I (wstep d o) i k = absd I d i k.
Proof. exact wstep_frame. Qed.

(* a new keyspace starts empty whatever was written under other ids before: reference step of WKs *)
Theorem C12_new_keyspace_empty : forall (I : N) (d : db) (h : N) (name : bytes) (k : bytes),
  blookup name (d_map d) = None -> absd I (fst (do_ks d h name)) (d_next_id d) k = None.
Proof. exact do_ks_empty. Qed.

(* deleting a keyspace changes no read of any keyspace object: every other keyspace is untouched, and the deleted one stays
   readable through handles opened before (its tree is dropped with its last handle) *)
Theorem C12_delete_changes_no_read : forall (I : N) (d : db) (h : N) (i : N) (k : bytes),
  absd I (fst (do_delks d h)) i k = absd I d i k.
Proof. intros. apply delks_reads. Qed.

(* after the deletion the name is free, and the keyspace created under it next is a NEW one (the next id) that reads empty:
   nothing written under the deleted incarnation is visible in it *)
Theorem C12_recreated_name_is_a_new_empty_keyspace : forall (I : N) (d : db) (h h2 : N) (ks : kspace) (id : N),
  alookup h (d_handles d) = Some id -> ks_of d id = Some ks -> blookup (k_name ks) (d_map d) <> None ->
  let d1 := fst (do_delks d h) in
  blookup (k_name ks) (d_map d1) = None /\
  forall k, absd I (fst (do_ks d1 h2 (k_name ks))) (d_next_id d1) k = None.
Proof. exact delks_then_create_is_empty. Qed.

(* across a reopen: deleting the keyspace a name currently maps to removes its meta row, and the next recovery produces no
   keyspace object for that id — whatever is left of its directory, and although journal records with its id still exist *)
Theorem C12_deleted_keyspace_gone_after_reopen : forall cfg (d : db) (h id : N) (ks : kspace),
  alookup h (d_handles d) = Some id -> ks_of d id = Some ks -> blookup (k_name ks) (d_map d) = Some id ->
  let d1 := fst (do_delks d h) in
  kfind (d_kss (do_reopen cfg d1)) id = None.
Proof. exact deleted_keyspace_gone_after_reopen. Qed.

(* ... and those journal records (items and clears whose keyspace id has no meta row) are ignored by replay *)
Theorem C12_records_of_deleted_keyspace_ignored : forall cfg meta mp st b,
  (forall it, In it (rb_items b) -> alookup (ri_ks it) meta = None) -> (forall c, In c (rb_clears b) -> alookup c meta = None) ->
  replay_batch cfg meta mp st b = st.
Proof. exact records_of_deleted_ignored. Qed.

(* the recovered keyspaces are exactly the directories that have a meta row *)
Theorem C12_recovered_keyspaces_are_the_registered_directories : forall cfg mode filters active sealed meta dirs pn ms,
  map k_id (d_kss (recover cfg mode filters active sealed meta dirs pn ms))
  = map fst (filter (fun p => match alookup (fst p) meta with Some _ => true | None => false end) dirs).
Proof. exact recover_ids. Qed.

(* programs with deletions and reopens keep the invariants under which all of the above (and C01's refinement steps) hold *)
Theorem C12_invariants_with_deletion_and_reopen : forall (ops : list rop) d,
  DInv d -> JS d -> DInv (fold_left rstep ops d) /\ JS (fold_left rstep ops d).
Proof. exact rrun_inv. Qed.

Print Assumptions C12_delete_changes_no_read.
Print Assumptions C12_deleted_keyspace_gone_after_reopen.
Print Assumptions C12_records_of_deleted_keyspace_ignored.
Print Assumptions C12_recovered_keyspaces_are_the_registered_directories.
Print Assumptions C12_recreated_name_is_a_new_empty_keyspace.
Print Assumptions C12_invariants_with_deletion_and_reopen.
Print Assumptions C12_frame.
Print Assumptions C12_new_keyspace_empty.
Print Assumptions C12_frame_partial.
Print Assumptions C12_deleted_refused_partial.
Print Assumptions C12_recovered_ids_fresh_partial.
Print Assumptions C12_new_keyspace_takes_next_id_partial.
