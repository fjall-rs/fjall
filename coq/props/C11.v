(* C11 — after reopening, new writes supersede everything recovered.  Only property theorems. *)
From FJ Require Import Prog TxP MapP RecoverP DbOrderP RefineP RecoverInvP.

(* After recovery of ANY disk image (any journal batches in any sealed/active journals, any tables, any
   registry): the next sequence number is above every entry of every recovered keyspace's current version
   (memtables rebuilt from the journal and tables alike) and above every journal record — including
   records that left no entry behind (clear) — and the visible seqno equals it. *)
Theorem C11_seqno_above_all :
  forall cfg mode filters active sealed meta dirs pn ms,
  d_seqno_journal cfg = false ->
  let d := recover cfg mode filters active sealed meta dirs pn ms in
  (forall ks e, In ks (d_kss d) -> In e (v_all (k_tree ks) (latest (k_tree ks))) -> es e < d_seqno d) /\
  (forall b, In b (concat sealed ++ active) -> rb_seqno b < d_seqno d) /\
  visible (d_trk d) = d_seqno d.
Proof. exact recover_seqno_above. Qed.

(* hence a write drawn afterwards (its seqno is >= that counter, above the whole active memtable) wins the
   point read of its key — value for an insert, absence for a remove — and leaves other keys alone.
   (partial: the scan clause is decided by the differential check) *)
Theorem C11_later_write_wins_partial : forall (e : ent) (a : list ent) (k : bytes) (I : N),
  all_below (es e) a -> es e < I ->
  value_of (newest k I (mem_insert e a)) =
    if list_eqb (ek e) k then (if is_tomb e then None else Some (ev e)) else value_of (newest k I a).
Proof. exact append_point_read. Qed.

(* the full clause, over the database model: in EVERY state reached by a program of keyspace creation, writes, batches,
   clears, ingestion, rotation, worker steps, drains, major compaction and REOPENS — in particular right after a reopen — an
   accepted insert / remove supersedes whatever was recovered: its key reads the written value (absent for a removal), and
   every other key of every keyspace reads as before.  Reads: the point read of the latest version at any instant at or
   above the counter; by C11_reads_agree_after_reopen the scan shows the same. *)
Theorem C11_later_write_wins : forall mode filters (ops : list rop) id k v vt mvt I i k',
  let d := fold_left rstep ops (db_init mode filters) in
  let d' := fst (write_one d id k v vt mvt) in
  snd (write_one d id k v vt mvt) = ObOk -> d_seqno d' <= I ->
  absd I d' i k' = if (i =? id) && list_eqb k k' then val_of mvt v else absd I d i k'.
Proof. exact later_write_wins. Qed.

(* in general: whatever history of writes, maintenance, deletions and reopens came before, EVERY later sequence of operations
   acts on the recovered content exactly as on a reference map (accepted writes set their key, refused ones and all maintenance
   change nothing, clears empty, ingestion overlays) — no recovered entry ever wins over a later write *)
Theorem C11_after_any_history_operations_refine : forall mode (hist : list rop) (ops : list wop) I,
  let d1 := fold_left rstep hist (db_init mode []) in
  d_seqno (fold_left wstep ops d1) <= I ->
  forall id k, absd I (fold_left wstep ops d1) id k = srun d1 ops (absd I d1) id k.
Proof. exact history_then_ops_refine. Qed.

Theorem C11_reads_agree_after_reopen : forall mode filters (ops : list rop) ks k I,
  let d := fold_left rstep ops (db_init mode filters) in
  In ks (d_kss d) ->
  v_get_ent (k_tree ks) (latest (k_tree ks)) k I = newest k I (v_all (k_tree ks) (latest (k_tree ks))).
Proof. exact reads_agree_with_reopen. Qed.

(* the counter clause for the model's own reopen of any reachable state *)
Theorem C11_counter_above_after_reopen : forall mode filters (ops : list rop),
  let d := do_reopen as_is (fold_left rstep ops (db_init mode filters)) in
  (forall ks e, In ks (d_kss d) -> In e (v_all (k_tree ks) (latest (k_tree ks))) -> es e < d_seqno d) /\
  (forall b, In b (J d) -> rb_seqno b < d_seqno d).
Proof. intros mode filters ops. apply reopen_counter_above. Qed.

Theorem C11_example :
  let d := fold_left rstep reopen_example (db_init MPlain []) in
  absd 100 d 1 [107] = Some [7] /\ absd 100 d 1 [108] = Some [2] /\ absd 100 d 1 [109] = Some [3].
Proof. exact reopen_example_reads. Qed.

Print Assumptions C11_later_write_wins.
Print Assumptions C11_after_any_history_operations_refine.
Print Assumptions C11_reads_agree_after_reopen.
Print Assumptions C11_counter_above_after_reopen.
Print Assumptions C11_example.
Print Assumptions C11_seqno_above_all.
Print Assumptions C11_later_write_wins_partial.
