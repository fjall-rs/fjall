(* C01 — ordered-map equivalence under background maintenance.
   FULL STATEMENT, a theorem over the database model (C01_refines_reference_map, C01_scan_is_the_sorted_map below):
     for every program of keyspace creation, writes, batches (hence transaction commits), clears, bulk ingestion, memtable
     rotation, worker steps (flush, journal sealing, journal eviction), drains and major compaction, the latest point read of
     every key in every keyspace equals a reference map updated by the write operations alone — rotate / flush / compaction /
     maintenance steps change nothing — and a scan is exactly that map in key order.
   Not in these two theorems (decided by the differential check; the interpreter theorems at the end of the file do cover reopen
   and deletion): reopen (C04), keyspace deletion (C12), compaction filters (C18),
   the iterator plumbing above scan_ents (ranges, prefix, reverse, two-ended consumption), key-value separation. *)
From FJ Require Import Prog LsmP TxP MapP OrderP DbOrderP ReachP SortP RefineP RecoverInvP PlainP.
From Coq Require Import Sorted.

(* a write (insert / remove / batch item) with a seqno above everything in the active memtable: the point
   read of the written key returns the written value (absence for a tombstone); other keys are untouched *)
Theorem C01_write_point_read_partial : forall (e : ent) (a : list ent) (k : bytes) (I : N),
  all_below (es e) a -> es e < I ->
  value_of (newest k I (mem_insert e a)) =
    if list_eqb (ek e) k then (if is_tomb e then None else Some (ev e)) else value_of (newest k I a).
Proof. exact append_point_read. Qed.

(* the compaction stream's per-key rule never changes what the newest version of a key reads as: the newest
   version is kept as is, or it was a tombstone evicted at the last level together with everything older *)
Theorem C01_gc_keeps_newest_partial : forall (W : N) (evict : bool) (h : ent) (t : list ent),
  value_of (hd_error (gc_key W evict None (h :: t))) = value_of (Some h).
Proof. exact gc_key_value. Qed.

(* rotation, flush registration, version-history maintenance never change reads at an instant above their
   parameters: see C05_reads_frozen (props/C05.v) *)

(* point reads agree with scans: a point read returns the first hit in source order (active memtable, sealed memtables,
   tables), a scan lets the highest seqno win; they coincide for key k at instant I whenever the sources are ordered by
   recency for that key.  Without the premise they differ (what replaying covered journal records used to produce). *)
Theorem C01_point_read_agrees_with_scan_partial : forall (t : tree) (v : version) (k : bytes) (I : N),
  recency_ordered k I (mem_of t (v_active v) :: map (mem_of t) (v_sealed v) ++ [v_tables v]) ->
  v_get_ent t v k I = newest k I (v_all t v).
Proof. exact point_read_agrees_with_scan. Qed.

(* ... and the premise is an invariant: for EVERY sequence of tree operations (memtable appends, rotation, flush,
   compaction with any filter, clear, ingestion registration, version-history maintenance) that respects the write
   discipline — an appended entry is newer than everything sealed or in tables; ingestion registers only after the
   memtables were flushed — the point read of every key at every instant equals the entry the scan shows for it *)
Theorem C01_reads_agree : forall (ops : list tree_op) (k : bytes) (I : N),
  run_disciplined tree_init ops ->
  let t := fold_left apply_top ops tree_init in
  v_get_ent t (latest t) k I = newest k I (v_all t (latest t)).
Proof. exact reads_agree. Qed.

Theorem C01_reads_agree_example : run_disciplined tree_init order_example.
Proof. exact order_example_ok. Qed.

(* ... and the operations of the database model respect that discipline: for EVERY sequence of keyspace creation, single
   writes, committed batches (transaction commits go through the same commit_batch), clear, memtable rotation, worker
   steps (flush, journal sealing, maintenance), drains, major compaction with any filter, and bulk ingestion — on every
   keyspace, for every key and every instant, the point read returns exactly the entry the scan shows.  (Reopen is not
   among these operations: that is where the premise was violated before the repairs, see C04.) *)
Theorem C01_db_reads_agree : forall (mode : dbmode) (filters : list (bytes * frule)) (ops : list wop) (ks : kspace) (k : bytes) (I : N),
  let d := fold_left wstep ops (db_init mode filters) in
  In ks (d_kss d) ->
  v_get_ent (k_tree ks) (latest (k_tree ks)) k I = newest k I (v_all (k_tree ks) (latest (k_tree ks))).
Proof. exact db_reads_agree. Qed.

Theorem C01_db_reads_agree_example :
  exists ks, In ks (d_kss (fold_left wstep db_example (db_init MPlain []))) /\ v_all (k_tree ks) (latest (k_tree ks)) <> [].
Proof. exact db_example_nonempty. Qed.

Theorem C01_shadowing_refuted_without_recency :
  value_of (v_get_ent shadow_tree (latest shadow_tree) [107] 10) = Some [1] /\
  value_of (newest [107] 10 (v_all shadow_tree (latest shadow_tree))) = Some [2].
Proof. exact shadow_disagrees. Qed.

(* ---- the refinement ---- *)
(* one step of the database model = one step of the reference maps (sstep, RefineP.v: a write sets its key, a refused write
   changes nothing, a batch is its items in order, clear empties, ingestion overlays, everything else is the identity) *)
Theorem C01_step_refines : forall (I : N) (d : db) (o : wop),
  DInv d -> nofilter d -> d_seqno (wstep d o) <= I ->
  forall id k, absd I (wstep d o) id k = sstep d o (absd I d) id k.
Proof. exact wstep_refines. Qed.

(* every program from the empty database, every keyspace id, every key, every read instant not below the seqno counter *)
Theorem C01_refines_reference_map : forall (mode : dbmode) (ops : list wop) (I : N) (id : N) (k : bytes),
  let d := fold_left wstep ops (db_init mode []) in
  d_seqno d <= I -> absd I d id k = srun (db_init mode []) ops sempty id k.
Proof. exact db_refines. Qed.

(* ... stated with the model's own read functions (t_get / t_scan: select the super-version for the instant, then first hit /
   merge): after EVERY program, for every keyspace object that is the registered one for its id, a point read at any instant
   above the seqno counter (Keyspace::get / iter read at SeqNo::MAX) returns the reference map's value, and a scan
   returns the reference map as a strictly ascending list *)
Theorem C01_reads_refine : forall (mode : dbmode) (ops : list wop) (I : N) (ks : kspace) (k : bytes),
  let d := fold_left wstep ops (db_init mode []) in
  In ks (d_kss d) -> d_seqno d < I -> kfind (d_kss d) (k_id ks) = Some ks ->
  t_get (k_tree ks) k I = Some (srun (db_init mode []) ops sempty (k_id ks) k) /\
  exists sc, t_scan (k_tree ks) I = Some sc /\
             StronglySorted (fun a b => bytes_ltb (fst a) (fst b) = true) sc /\
             forall k' v, In (k', v) sc <-> srun (db_init mode []) ops sempty (k_id ks) k' = Some v.
Proof. exact db_reads_refine. Qed.

(* the same for EVERY keyspace object of the reached state: keyspace ids are unique in every reachable state (UQ, RefineP.v) *)
Theorem C01_reads_refine_all : forall (mode : dbmode) (ops : list wop) (I : N) (ks : kspace) (k : bytes),
  let d := fold_left wstep ops (db_init mode []) in
  In ks (d_kss d) -> d_seqno d < I ->
  t_get (k_tree ks) k I = Some (srun (db_init mode []) ops sempty (k_id ks) k) /\
  exists sc, t_scan (k_tree ks) I = Some sc /\
             StronglySorted (fun a b => bytes_ltb (fst a) (fst b) = true) sc /\
             forall k' v, In (k', v) sc <-> srun (db_init mode []) ops sempty (k_id ks) k' = Some v.
Proof. exact db_reads_refine_all. Qed.

(* ---- the program interpreter whose observation lines are compared with the implementation (Prog.v db_step / run) ----
   On a plain database every write / batch / clear / ingestion / rotate / step / drain / major / reopen operation of a program
   is exactly one operation of the database model (or changes nothing, when it is refused), reads change nothing ... *)
Theorem C01_interpreter_steps_are_model_steps : forall (d : db) (o : op),
  d_mode d = MPlain -> plain_op o = true ->
  fst (db_step as_is d o) = match rop_of d o with Some r => rstep d r | None => d end.
Proof. exact plain_step_state. Qed.

(* ... so every state it reaches on a program of such operations is reached by model operations, where the invariants hold *)
Theorem C01_interpreter_states_reachable : forall (prog : list op) (d : db),
  d_mode d = MPlain -> forallb plain_op prog = true -> exists rs, fst (run as_is d prog) = fold_left rstep rs d.
Proof. exact plain_run_reachable. Qed.

(* ... and in every such state (any program of writes, maintenance and reopens) the line printed for `get` is the point read
   of the latest version, the line printed for `scan` (any direction, any range / prefix) is that consumption of the
   restricted sorted map, whose entries are exactly the keys the point read finds — C01_refines_reference_map says which *)
Theorem C01_get_observation : forall filters (rs : list rop) (h : N) (ks : kspace),
  let d := fold_left rstep rs (db_init MPlain filters) in
  handle_ks d h = Some ks -> d_seqno d < MAXSEQ ->
  forall k, db_step as_is d (OGet VwNone h k) = (d, Ox (ObOpt (abs MAXSEQ (k_tree ks) k))).
Proof. exact plain_get_obs. Qed.

Theorem C01_scan_observation : forall filters (rs : list rop) (h : N) (ks : kspace),
  let d := fold_left rstep rs (db_init MPlain filters) in
  handle_ks d h = Some ks -> d_seqno d < MAXSEQ ->
  forall dir r, exists sc,
    db_step as_is d (OScan VwNone h dir r) = (d, Ox (ObList (consume dir (restrict r sc)))) /\
    StronglySorted (fun a b => bytes_ltb (fst a) (fst b) = true) sc /\
    forall k v, In (k, v) sc <-> abs MAXSEQ (k_tree ks) k = Some v.
Proof. exact plain_scan_obs. Qed.

(* the observation LIST of a whole program: the line printed for a `get` placed anywhere in a plain program (any writes,
   maintenance, deletions and reopens before it, anything after it) is the latest-version point read of the state reached there,
   and that state is reached by model operations *)
Theorem C01_program_get_line : forall filters (p1 p2 : list op) (h : N) (k : bytes),
  forallb plain_op p1 = true ->
  let d0 := db_init MPlain filters in
  let d := fst (run as_is d0 p1) in
  forall ks, handle_ks d h = Some ks -> d_seqno d < MAXSEQ ->
  nth (length p1) (snd (run as_is d0 (p1 ++ OGet VwNone h k :: p2))) (Ox ObBadref) = Ox (ObOpt (abs MAXSEQ (k_tree ks) k)) /\
  exists rs, d = fold_left rstep rs d0.
Proof. exact plain_program_get_line. Qed.

(* maintenance is invisible: these five operations are the identity of the reference step, by definition of sstep *)
Theorem C01_maintenance_invisible : forall (d : db) (m : smap) (id : N) (fuel : nat) (ev : bool),
  sstep d (WRotate' id) m = m /\ sstep d WStep m = m /\ sstep d (WDrain fuel) m = m /\ sstep d (WMajor id ev) m = m.
Proof. intros. repeat split. Qed.

(* a scan of the latest version is strictly ascending in the key order and contains (k, v) exactly when the point read of k
   returns v: it is the reference map as a sorted list *)
Theorem C01_scan_is_the_sorted_map : forall (I : N) (d : db) (ks : kspace),
  DInv d -> In ks (d_kss d) ->
  let sc := scan_ents (v_all (k_tree ks) (latest (k_tree ks))) I in
  StronglySorted (fun a b => bytes_ltb (fst a) (fst b) = true) sc /\
  forall k v, In (k, v) sc <-> abs I (k_tree ks) k = Some v.
Proof. intros I d ks H Iks sc. split; [apply scan_sorted|intros k v; apply (scan_matches_reads I d ks k v H Iks)]. Qed.

(* the invariant of the two theorems above holds in every reachable state *)
Theorem C01_invariant_reachable : forall mode ops, DInv (fold_left wstep ops (db_init mode [])) /\ NF (fold_left wstep ops (db_init mode [])).
Proof. intros. split; [apply wrun_dinv, dinv_init|apply run_nf, nf_init]. Qed.

(* what the merged flush / compaction stream leaves of a key, for a reader above every seqno in the input: without a filter
   the same value (the newest version itself, or nothing when that was a tombstone evicted at the last level) *)
Theorem C01_gc_stream_keeps_values : forall (W : N) (ev : bool) (k : bytes) (I : N) (l : list ent),
  all_below I l -> value_of (newest k I (gc_stream W ev None l)) = value_of (newest k I l).
Proof. exact gc_stream_value. Qed.

Theorem C01_refines_example :
  let d := fold_left wstep db_example (db_init MPlain []) in
  d_seqno d <= 100 /\ absd 100 d 1 [105] = Some [9] /\ srun (db_init MPlain []) db_example sempty 1 [105] = Some [9] /\
  srun (db_init MPlain []) db_example sempty 1 [107] = None.
Proof. exact refine_example. Qed.

Print Assumptions C01_step_refines.
Print Assumptions C01_refines_reference_map.
Print Assumptions C01_reads_refine.
Print Assumptions C01_reads_refine_all.
Print Assumptions C01_program_get_line.
Print Assumptions C01_interpreter_steps_are_model_steps.
Print Assumptions C01_interpreter_states_reachable.
Print Assumptions C01_get_observation.
Print Assumptions C01_scan_observation.
Print Assumptions C01_maintenance_invisible.
Print Assumptions C01_scan_is_the_sorted_map.
Print Assumptions C01_invariant_reachable.
Print Assumptions C01_gc_stream_keeps_values.
Print Assumptions C01_refines_example.
Print Assumptions C01_write_point_read_partial.
Print Assumptions C01_gc_keeps_newest_partial.
Print Assumptions C01_point_read_agrees_with_scan_partial.
Print Assumptions C01_shadowing_refuted_without_recency.
Print Assumptions C01_reads_agree.
Print Assumptions C01_reads_agree_example.
Print Assumptions C01_db_reads_agree.
Print Assumptions C01_db_reads_agree_example.
