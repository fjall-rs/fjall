(* C06 — a committed batch becomes visible to readers atomically.  Only property theorems. *)
From FJ Require Import Conc ConcP.

(* For EVERY interleaving of the commit protocol's micro-steps (acquire the journal mutex, draw the seqno,
   apply item by item, publish, release) of any number of successive batches of any size n with
   snapshot-taking readers: what a snapshot (instant = visible seqno) sees of a batch, it sees entirely —
   as long as no step advances the visible seqno outside the mutex. *)
Theorem C06_snapshot_atomic : forall (n : N) (es : list event) (s : cst),
  forallb (fun e => negb (is_bump e)) es = true -> crun n cinit es = Some s ->
  forall q i, In (q, i) (seen s) -> forall j, j < n -> In (q, j) (seen s).
Proof. exact snapshot_atomic. Qed.

(* The code has such a step: every lsm-tree version upgrade (flush registration, compaction) does
   visible_seqno.fetch_max(seqno+1) on the shared counter.  With it the statement is refuted (known finding E4):
   a two-item batch is seen torn. *)
Theorem C06_bump_refuted :
  exists s, crun 2 cinit (EAcq :: EDraw :: EApply :: EBump :: ESnap :: nil) = Some s /\
            In (0, 0) (seen s) /\ ~ In (0, 1) (seen s).
Proof. exact bump_refutes. Qed.

Print Assumptions C06_snapshot_atomic.
Print Assumptions C06_bump_refuted.
