(* C16 — keyspace options chosen at creation stay in force.  Only property theorems. *)
From FJ Require Import Options OptionsP Db.

(* each of the six per-level policy codecs round-trips every vector of the allowed length (1..255;
   the empty vector is rejected by the constructors), f32 entries as bit patterns (NaN payloads included) *)
Theorem C16_policy_roundtrips :
  (forall l, Forall u32 l -> (length l <= 255)%nat -> dec_u32s (enc_u32s l) = Some l) /\   (* block size, hash ratio *)
  (forall l, Forall u8 l -> (length l <= 255)%nat -> dec_u8s (enc_u8s l) = Some l) /\      (* restart interval *)
  (forall l, (length l <= 255)%nat -> dec_bools (enc_bools l) = Some l) /\                 (* pinning, partitioning *)
  (forall l, (length l <= 255)%nat -> dec_comps (enc_comps l) = Some l) /\                 (* compression *)
  (forall l, Forall wf_fentry l -> (length l <= 255)%nat -> dec_filters (enc_filters l) = Some l).  (* filter *)
Proof.
  exact (conj u32s_roundtrip (conj u8s_roundtrip (conj bools_roundtrip (conj comps_roundtrip filters_roundtrip)))).
Qed.

(* the whole option record (all strategies and parameters, blob options present or absent, manual
   persist, memtable size) is restored from its stored rows; only level_count is forced to 7 *)
Theorem C16_kvs_roundtrip : forall o : opts,
  wf_opts o -> from_kvs (encode_kvs o) = Some (with_levels7 o).
Proof. exact kvs_roundtrip. Qed.

(* the length byte wraps at 256 entries, so the bound in wf_opts is necessary: this is reachable for
   level_ratio_policy, whose setter accepts any Vec<f32> *)
Theorem C16_length_guard_needed : dec_u32s (enc_u32s (repeat 0%N 256)) = Some nil.
Proof. exact len_byte_wraps. Qed.

(* opening an existing name returns the existing keyspace object, whatever options are passed:
   the model's [do_ks] does not even take them, and leaves every keyspace untouched *)
Theorem C16_existing_ignores_options : forall (d : db) (h : N) (name : bytes) (id : N),
  blookup name (d_map d) = Some id ->
  d_kss (fst (do_ks d h name)) = d_kss d /\ d_meta (fst (do_ks d h name)) = d_meta d /\
  alookup h (d_handles (fst (do_ks d h name))) = Some id.
Proof.
  intros d h name id H. unfold do_ks. rewrite H. cbn. rewrite N.eqb_refl. auto.
Qed.

Print Assumptions C16_policy_roundtrips.
Print Assumptions C16_kvs_roundtrip.
Print Assumptions C16_length_guard_needed.
Print Assumptions C16_existing_ignores_options.
